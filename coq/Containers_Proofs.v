(* C19 - lemmas about ContainersModel.v: IdxSet (no duplicates, stable prefix on removal), NameSet (lookup returns
   the registered number / key, removed names are gone; memPack, memRemax and add leave every name readable),
   SVSet growth, DataHashTable. *)
From Coq Require Import List ZArith Bool Lia Permutation.
From SV Require Import ListAux DataSetModel DataSet_Proofs ContainersModel.
Import ListNotations.
Local Open Scope Z_scope.

Lemma is_remove_pos_g l n : is_remove_pos l n = g_remove_pos l n.
Proof. reflexivity. Qed.

Lemma is_add_nodup : forall l i, NoDup l -> ~ In i l -> NoDup (is_add l i).
Proof. intros l i Hnd Hi. unfold is_add. apply NoDup_snoc; assumption. Qed.

Lemma is_add_list_nodup : forall l is, NoDup (l ++ is) -> NoDup (is_add_list l is).
Proof. intros l is H. exact H. Qed.

Lemma is_remove_pos_spec : forall l n, 0 <= n < zlen l ->
  Permutation (getn 0 l n :: is_remove_pos l n) l /\ zlen (is_remove_pos l n) = zlen l - 1 /\
  (forall i, 0 <= i < n -> getn 0 (is_remove_pos l n) i = getn 0 l i).
Proof.
  intros l n Hn. rewrite is_remove_pos_g. split; [apply g_remove_pos_perm; exact Hn|].
  split; [apply g_remove_pos_zlen; exact Hn|]. intros i Hi. rewrite getn_g_remove_pos by lia.
  now replace (i =? n) with false by lia.
Qed.

Lemma is_remove_pos_nodup : forall l n, NoDup l -> NoDup (is_remove_pos l n).
Proof. intros l n. rewrite is_remove_pos_g. apply g_remove_pos_nodup. Qed.

Lemma is_remove_pos_oob : forall l n, ~ (0 <= n < zlen l) -> is_remove_pos l n = l.
Proof. intros l n. rewrite is_remove_pos_g. apply g_remove_pos_oob. Qed.

Lemma is_pos_from_app_notin : forall l r i p, ~ In i l -> is_pos_from (l ++ r) i p = is_pos_from r i (p + zlen l).
Proof.
  induction l as [|x l IH]; intros r i p Hn; cbn [app is_pos_from].
  - change (zlen []) with 0. rewrite Z.add_0_r. reflexivity.
  - destruct (Z.eqb_spec x i) as [E|E]; [exfalso; apply Hn; left; exact E|].
    rewrite IH by (intros C; apply Hn; right; exact C). rewrite zlen_cons. f_equal. lia.
Qed.

Lemma is_pos_notin l i : ~ In i l -> is_pos l i = -1.
Proof.
  intros Hn. unfold is_pos. rewrite <- (app_nil_r l), is_pos_from_app_notin by exact Hn. reflexivity.
Qed.

Lemma is_pos_first l1 l2 i : ~ In i l1 -> is_pos (l1 ++ i :: l2) i = zlen l1.
Proof.
  intros Hn. unfold is_pos. rewrite is_pos_from_app_notin by exact Hn. cbn [is_pos_from]. rewrite Z.eqb_refl. lia.
Qed.

Lemma is_pos_snoc_new l i : ~ In i l -> is_pos (l ++ [i]) i = zlen l.
Proof. apply is_pos_first. Qed.

Lemma is_pos_app_in l r i : In i l -> is_pos (l ++ r) i = is_pos l i.
Proof.
  intros Hin. destruct (in_split_first Z.eq_dec l i Hin) as (l1 & l2 & -> & Hn).
  rewrite <- app_assoc, <- app_comm_cons, !is_pos_first by exact Hn. reflexivity.
Qed.

Lemma is_pos_cases l i :
  ~ In i l /\ is_pos l i = -1 \/ exists l1 l2, l = l1 ++ i :: l2 /\ ~ In i l1 /\ is_pos l i = zlen l1.
Proof.
  destruct (in_dec Z.eq_dec i l) as [Hin|Hn]; [right | left; split; [exact Hn | apply is_pos_notin; exact Hn]].
  destruct (in_split_first Z.eq_dec l i Hin) as (l1 & l2 & -> & Hn1). exists l1, l2.
  split; [reflexivity|]. split; [exact Hn1 | apply is_pos_first; exact Hn1].
Qed.

Lemma is_pos_range : forall l i, -1 <= is_pos l i < zlen l.
Proof.
  intros l i. pose proof (zlen_nonneg l). destruct (is_pos_cases l i) as [[_ ->]|(l1 & l2 & -> & _ & ->)]; [lia|].
  rewrite zlen_app, zlen_cons. pose proof (zlen_nonneg l1). pose proof (zlen_nonneg l2). lia.
Qed.

Lemma is_pos_spec : forall l i,
  (is_pos l i = -1 <-> ~ In i l) /\
  (0 <= is_pos l i -> is_pos l i < zlen l /\ getn 0 l (is_pos l i) = i /\
                      forall q, 0 <= q < is_pos l i -> getn 0 l q <> i).
Proof.
  intros l i. pose proof (is_pos_range l i) as Hr.
  destruct (is_pos_cases l i) as [[Hn E]|(l1 & l2 & El & Hn1 & E)]; rewrite E in *.
  - split; [split; [intros _; exact Hn | reflexivity] | lia].
  - pose proof (zlen_nonneg l1). split; [split; [lia | intros C; exfalso; apply C; rewrite El; apply in_elt]|].
    intros _. split; [lia|]. rewrite El. split; [apply getn_app_mid|].
    intros q Hq C. apply Hn1. rewrite <- C, getn_app_l by lia. apply getn_in. lia.
Qed.

Lemma is_pos_nonneg_in l i : 0 <= is_pos l i <-> In i l.
Proof.
  destruct (is_pos_cases l i) as [[Hn E]|(l1 & l2 & -> & _ & E)]; rewrite E.
  - split; [lia | contradiction].
  - split; [intros _; apply in_elt | intros _; apply zlen_nonneg].
Qed.

Lemma is_pos_getn l n : NoDup l -> 0 <= n < zlen l -> is_pos l (getn 0 l n) = n.
Proof.
  intros Hnd Hn. rewrite getn_nth by lia. set (i := nth (Z.to_nat n) l 0).
  destruct (nth_split l 0 (n := Z.to_nat n)) as (l1 & l2 & E & Hl); [unfold zlen in Hn; lia|]. fold i in E.
  rewrite E in Hnd |- *. apply NoDup_remove_2 in Hnd.
  rewrite is_pos_first by (intros C; apply Hnd, in_or_app; left; exact C). unfold zlen. lia.
Qed.

Lemma is_remove_range_abc (a b c : list Z) n m : n = zlen a -> m + 1 = zlen a + zlen b ->
  exists x, is_remove_range (a ++ b ++ c) n m = a ++ x /\ Permutation x c.
Proof.
  intros -> Hm. unfold is_remove_range, lastn. cbv zeta. rewrite zlen_length.
  destruct (Z.leb_spec (m + 1 - zlen a) (zlen (a ++ b ++ c) - (m + 1))) as [H|H];
    [set (cpy := length b) | set (cpy := length c)];
    (exists (skipn (length c - cpy) c ++ firstn (length c - cpy) c);
     split; [|rewrite Permutation_app_comm, firstn_skipn; reflexivity]);
    apply (remove_range_abc (fun x => x) a b c cpy); unfold cpy, zlen in *; rewrite ?app_length in *; lia.
Qed.

Lemma is_remove_range_spec : forall l n m, 0 <= n <= m -> m < zlen l ->
  Permutation (is_remove_range l n m ++ firstn (Z.to_nat (m + 1 - n)) (skipn (Z.to_nat n) l)) l /\
  zlen (is_remove_range l n m) = zlen l - (m + 1 - n) /\
  (forall i, 0 <= i < n -> getn 0 (is_remove_range l n m) i = getn 0 l i).
Proof.
  intros l n m Hn Hm.
  destruct (app3_split l (Z.to_nat n) (Z.to_nat (m + 1 - n))) as (El & HA & HB); [unfold zlen in Hm; lia|].
  set (A := firstn (Z.to_nat n) l) in *. set (B := firstn _ (skipn _ l)) in *. set (C := skipn _ (skipn _ l)) in *.
  clearbody A B C. subst l.
  destruct (is_remove_range_abc A B C n m) as (x & -> & Px); [unfold zlen; lia | unfold zlen; lia|].
  split; [|split].
  - rewrite <- app_assoc. apply Permutation_app_head. rewrite Px. apply Permutation_app_comm.
  - apply Permutation_length in Px. rewrite !zlen_app. unfold zlen. lia.
  - intros i Hi. rewrite !getn_app_l by (unfold zlen; lia). reflexivity.
Qed.

Lemma is_remove_range_nodup : forall l n m, 0 <= n <= m -> m < zlen l -> NoDup l -> NoDup (is_remove_range l n m).
Proof.
  intros l n m Hn Hm Hnd. destruct (is_remove_range_spec l n m Hn Hm) as (P & _).
  apply (Permutation_NoDup (Permutation_sym P)), NoDup_app_iff in Hnd. apply Hnd.
Qed.

(* the growth step in front of an insertion (NameSet::add, SVSet::ensurePSVec): reMax under a condition *)
Lemma ds_remax_if D d0 (s : ds D) (b : bool) m : ds_inv s ->
  let s1 := if b then ds_remax d0 s m else s in
  ds_inv s1 /\ ds_abs d0 s1 = ds_abs d0 s /\ thenum s1 = thenum s /\
  themax s1 = if b then Z.max m (thesize s) else themax s.
Proof.
  intros Hi. destruct b; cbv zeta; [|auto]. destruct (ds_remax_spec D d0 s m Hi) as (R1 & R2 & R3 & _ & R5). auto.
Qed.

(* the invariant of a name set: that of its DataSet, and no name registered twice *)
Definition ns_inv (s : nset) : Prop := ds_inv s /\ NoDup (ns_names s).

Lemma ns_names_len s : ds_inv s -> zlen (ns_names s) = thenum s.
Proof.
  intros Hi. unfold ns_names. rewrite zlen_map. apply zlen_abs. destruct (inv_bounds _ s Hi). lia.
Qed.

Lemma ns_number_range s name : ds_inv s -> -1 <= ns_number s name < thenum s.
Proof. intros Hi. rewrite <- (ns_names_len s Hi). apply is_pos_range. Qed.

Lemma getn_abs_name s n : 0 <= n < thenum s -> getn (-1, 0) (ds_abs 0 s) n = (ds_key s n, getn 0 (ns_names s) n).
Proof.
  intros Hn. unfold ns_names. rewrite (getn_map snd (-1, 0) 0) by (rewrite zlen_abs; lia).
  rewrite getn_abs by exact Hn. reflexivity.
Qed.

Lemma ns_has_in s name : ns_has s name = true <-> In name (ns_names s).
Proof. unfold ns_has, ns_number. rewrite Z.leb_le. apply is_pos_nonneg_in. Qed.

Lemma ns_lookup_absent : forall s name, ns_has s name = false <-> ~ In name (ns_names s).
Proof. intros s name. rewrite <- ns_has_in. symmetry. apply not_true_iff_false. Qed.

Lemma ns_key_absent s name : ns_has s name = false -> ns_key s name = -1.
Proof. unfold ns_has, ns_key. intros H. rewrite H. reflexivity. Qed.

(* The observations has / key and the abstract list determine each other: (k, name) is an entry of the set iff the name
   is found and k is its key (ns_lookup, ns_key_of_in). *)
Lemma ns_lookup : forall s name, ds_inv s -> ns_has s name = true ->
  0 <= ns_number s name < thenum s /\ getn 0 (ns_names s) (ns_number s name) = name /\
  ds_key s (ns_number s name) = ns_key s name /\ In (ns_key s name, name) (ds_abs 0 s).
Proof.
  intros s name Hi Hh. pose proof (ns_number_range s name Hi) as Hr.
  assert (H0 : 0 <= ns_number s name) by (apply Z.leb_le; exact Hh).
  destruct (is_pos_spec (ns_names s) name) as [_ Hsp]. destruct (Hsp H0) as (_ & Hg & _).
  fold (ns_number s name) in Hg.
  assert (Hk : ds_key s (ns_number s name) = ns_key s name) by (unfold ns_key; fold (ns_has s name); rewrite Hh; reflexivity).
  split; [lia|]. split; [exact Hg|]. split; [exact Hk|].
  rewrite <- Hk. set (n := ns_number s name) in *. rewrite <- Hg, <- getn_abs_name by lia.
  apply getn_in. rewrite zlen_abs; lia.
Qed.

Lemma ns_key_of_in s k name : ns_inv s -> In (k, name) (ds_abs 0 s) -> ns_key s name = k /\ ns_has s name = true.
Proof.
  intros [Hi Hnd] Hin. destruct (in_getn (-1, 0) _ _ Hin) as (i & Hr & Hg).
  rewrite zlen_abs in Hr by apply (inv_bounds _ s Hi). rewrite getn_abs_name in Hg by exact Hr.
  injection Hg as Hk Hn.
  assert (Hp : ns_number s name = i).
  { rewrite <- Hn. apply is_pos_getn; [exact Hnd | rewrite ns_names_len; assumption]. }
  unfold ns_has, ns_key. rewrite Hp, leb_true by lia. split; [exact Hk | reflexivity].
Qed.

(* a set whose entries are among those of s finds its names under the keys they have in s *)
Lemma ns_sub s s' name : ns_inv s -> ds_inv s' -> incl (ds_abs 0 s') (ds_abs 0 s) -> ns_has s' name = true ->
  ns_has s name = true /\ ns_key s' name = ns_key s name.
Proof.
  intros Hinv Hi' Hsub Hh. destruct (ns_lookup s' name Hi' Hh) as (_ & _ & _ & Hin).
  destruct (ns_key_of_in s _ name Hinv (Hsub _ Hin)) as [E H]. split; [exact H | symmetry; exact E].
Qed.

(* A removal by name or by keys keeps exactly the entries that pass a test p: then a name is found afterwards iff it
   was found and its entry passes, and a name whose entry passes keeps its key (-1 if it is absent). *)
Lemma ns_filter s s' (p : Z * Z -> bool) : ns_inv s -> ns_inv s' ->
  (forall e, In e (ds_abs 0 s') <-> In e (ds_abs 0 s) /\ p e = true) ->
  (forall name, ns_has s' name = ns_has s name && p (ns_key s name, name)) /\
  (forall name, p (ns_key s name, name) = true -> ns_key s' name = ns_key s name).
Proof.
  intros Hinv Hinv' H.
  assert (Hsub : incl (ds_abs 0 s') (ds_abs 0 s)) by (intros e He; apply H, He).
  assert (H1 : forall name, ns_has s' name = ns_has s name && p (ns_key s name, name)).
  { intros name. apply eq_true_iff_eq. rewrite andb_true_iff. split.
    - intros Hh. destruct (ns_sub s s' name Hinv (proj1 Hinv') Hsub Hh) as [Hs E]. split; [exact Hs|].
      rewrite <- E. apply H. apply (ns_lookup s' name (proj1 Hinv') Hh).
    - intros [Hh Hp]. apply (ns_key_of_in s' (ns_key s name) name Hinv'). apply H. split; [|exact Hp].
      apply (ns_lookup s name (proj1 Hinv) Hh). }
  split; [exact H1|]. intros name Hp. specialize (H1 name). rewrite Hp, andb_true_r in H1.
  destruct (ns_has s name) eqn:Hh.
  - apply (ns_sub s s' name Hinv (proj1 Hinv') Hsub H1).
  - rewrite !ns_key_absent by assumption. reflexivity.
Qed.

Lemma ns_add_existing : forall s name, ns_has s name = true -> ns_add s name = (s, None).
Proof. intros s name H. unfold ns_add. rewrite H. reflexivity. Qed.

Lemma ns_add_new : forall s name, ns_inv s -> ns_has s name = false ->
  let s' := fst (ns_add s name) in
  exists k, snd (ns_add s name) = Some k /\ ns_inv s' /\ ds_abs 0 s' = ds_abs 0 s ++ [(k, name)] /\
    ~ In k (a_keys (ds_abs 0 s)) /\ ns_number s' name = thenum s /\ ns_key s' name = k /\
    (forall other, ns_has s other = true ->
       ns_number s' other = ns_number s other /\ ns_key s' other = ns_key s other).
Proof.
  intros s name Hinv Hh. pose proof Hinv as [Hi Hnd]. unfold ns_add. rewrite Hh.
  destruct (ds_remax_if Z 0 s (7 * themax s <? 10 * (thesize s + 1)) (2 * themax s + 8) Hi) as (Hi1 & Ha1 & Hn1 & Hm1).
  set (s1 := if _ <? _ then ds_remax 0 s _ else s) in *.
  assert (Hlt1 : thenum s1 < themax s1).
  { destruct (inv_bounds _ s Hi) as [Hb1 Hb2]. rewrite Hn1, Hm1. destruct (7 * themax s <? 10 * (thesize s + 1)) eqn:Hg; lia. }
  pose proof (ds_add_spec Z 0 s1 name Hi1 Hlt1) as Hadd. cbv zeta in Hadd.
  destruct (ds_add s1 name) as [s2 k] eqn:Eadd. cbn [fst snd] in Hadd |- *.
  destruct Hadd as (Hi2 & Ha2 & Hk & _ & Hn2). rewrite Ha1 in Ha2, Hk.
  assert (Hnin : ~ In name (ns_names s)) by (apply ns_lookup_absent; exact Hh).
  assert (Hnames : ns_names s2 = ns_names s ++ [name]) by (unfold ns_names; rewrite Ha2, map_app; reflexivity).
  assert (Hinv2 : ns_inv s2) by (split; [exact Hi2 | rewrite Hnames; apply NoDup_snoc; assumption]).
  exists k. split; [reflexivity|]. split; [exact Hinv2|]. split; [exact Ha2|]. split; [exact Hk|]. split; [|split].
  - unfold ns_number. rewrite Hnames, is_pos_snoc_new by exact Hnin. apply ns_names_len. exact Hi.
  - apply (ns_key_of_in s2 k name Hinv2). rewrite Ha2. apply in_or_app. right. left. reflexivity.
  - intros other Ho. split.
    + unfold ns_number. rewrite Hnames. apply is_pos_app_in. apply ns_has_in. exact Ho.
    + destruct (ns_lookup s other (proj1 Hinv) Ho) as (_ & _ & _ & Hin).
      apply (ns_key_of_in s2 _ other Hinv2). rewrite Ha2. apply in_or_app. left. exact Hin.
Qed.

Lemma ns_remove_name_absent : forall s name, ns_has s name = false -> ns_remove_name s name = s.
Proof. intros s name H. unfold ns_remove_name. fold (ns_has s name). rewrite H. reflexivity. Qed.

Lemma ns_remove_num_inv s n : ns_inv s -> ns_inv (ds_remove_num s n).
Proof.
  intros [Hi Hnd]. split; [apply ds_remove_num_inv; exact Hi|]. unfold ns_names.
  rewrite (ds_remove_num_abs Z 0 s n Hi), a_remove_g, g_remove_pos_map. apply g_remove_pos_nodup, Hnd.
Qed.

(* removing a position of a list without repetition under f removes the entries with that f *)
Lemma in_g_remove_pos_by {A B} (f : A -> B) (d : A) l n e : NoDup (map f l) -> 0 <= n < zlen l ->
  (In e (g_remove_pos l n) <-> In e l /\ f e <> f (getn d l n)).
Proof.
  intros Hnd Hn. split.
  - intros He. split; [apply g_remove_pos_in in He; exact He|]. intros C.
    apply (g_remove_pos_notin (f d) (map f l) n Hnd); [rewrite zlen_map; exact Hn|].
    rewrite <- g_remove_pos_map, (getn_map f d) by exact Hn. rewrite <- C. apply in_map, He.
  - intros [He C]. apply (g_remove_pos_in_other d); [exact He|]. intros _ E. apply C. rewrite E. reflexivity.
Qed.

Lemma ns_remove_name_spec : forall s name, ns_inv s -> ns_has s name = true ->
  let s' := ns_remove_name s name in
  ns_inv s' /\ ns_has s' name = false /\
  (forall other, other <> name -> ns_has s' other = ns_has s other /\ ns_key s' other = ns_key s other) /\
  ds_abs 0 s' = a_remove (ns_number s name) (ds_abs 0 s).
Proof.
  intros s name Hinv Hh. pose proof Hinv as [Hi Hnd]. cbv zeta.
  destruct (ns_lookup s name Hi Hh) as (Hr & Hg & _).
  unfold ns_remove_name. fold (ns_has s name). rewrite Hh. set (n := ns_number s name) in *.
  pose proof (ns_remove_num_inv s n Hinv) as Hinv'.
  destruct (ns_filter s (ds_remove_num s n) (fun e => negb (snd e =? name)) Hinv Hinv') as [F1 F2].
  { intros e. rewrite (ds_remove_num_abs Z 0 s n Hi), a_remove_g.
    rewrite (in_g_remove_pos_by snd (-1, 0) _ n e Hnd) by (rewrite zlen_abs; lia).
    rewrite getn_abs_name by exact Hr. cbn [snd]. rewrite Hg, negb_true_iff, Z.eqb_neq. reflexivity. }
  cbn [snd] in F1, F2.
  split; [exact Hinv'|]. split; [rewrite F1, Z.eqb_refl; apply andb_false_r|].
  split; [|apply ds_remove_num_abs; exact Hi]. intros other Hne. apply Z.eqb_neq in Hne.
  split; [rewrite F1, Hne; apply andb_true_r | apply F2; rewrite Hne; reflexivity].
Qed.

(* one step of ns_remove_keys *)
Definition ns_remove_key1 (s : nset) (k : Z) : nset :=
  match ds_number s k with Some n => ds_remove_num s n | None => s end.

Lemma ns_remove_key1_abs s k : ns_inv s ->
  ns_inv (ns_remove_key1 s k) /\
  forall e, In e (ds_abs 0 (ns_remove_key1 s k)) <-> In e (ds_abs 0 s) /\ negb (fst e =? k) = true.
Proof.
  intros Hinv. pose proof Hinv as [Hi _]. unfold ns_remove_key1.
  split; [destruct (ds_number s k); [apply ns_remove_num_inv|]; exact Hinv|].
  intros [k' v]. cbn [fst]. rewrite negb_true_iff, Z.eqb_neq.
  (* a key of the set has a number in range: otherwise nothing has the key k and nothing is removed *)
  assert (Hno : (forall n, ds_number s k = Some n -> n < 0) ->
                (In (k', v) (ds_abs 0 s) <-> In (k', v) (ds_abs 0 s) /\ k' <> k)).
  { intros Hneg. split; [|tauto]. intros Hin. split; [exact Hin|]. intros ->.
    apply (ds_lookup Z 0 s k v Hi) in Hin. destruct Hin as (_ & _ & _ & n & En & Hn & _).
    specialize (Hneg n En). lia. }
  destruct (ds_number s k) as [n|] eqn:En; [|apply Hno; discriminate].
  destruct (Z_lt_le_dec n 0) as [Hneg|Hpos];
    [rewrite ds_remove_num_oob by lia; apply Hno; intros ? [= <-]; exact Hneg|].
  destruct (ds_dense Z 0 s Hi) as (Hl & Hk & _ & Hd). destruct (Hd k n En Hpos) as [Hr <-].
  rewrite (ds_remove_num_abs Z 0 s n Hi), a_remove_g.
  rewrite (in_g_remove_pos_by fst (-1, 0) _ n _ Hk) by (rewrite Hl; exact Hr).
  rewrite getn_abs by exact Hr. reflexivity.
Qed.

Lemma ns_remove_keys_abs : forall ks s, ns_inv s ->
  ns_inv (ns_remove_keys s ks) /\
  forall e, In e (ds_abs 0 (ns_remove_keys s ks)) <-> In e (ds_abs 0 s) /\ negb (existsb (Z.eqb (fst e)) ks) = true.
Proof.
  induction ks as [|k ks IH]; intros s Hinv.
  - split; [exact Hinv|]. intros e. cbn [ns_remove_keys fold_left existsb negb]. tauto.
  - change (ns_remove_keys s (k :: ks)) with (ns_remove_keys (ns_remove_key1 s k) ks).
    destruct (ns_remove_key1_abs s k Hinv) as [A1 A2]. destruct (IH _ A1) as [B1 B2]. split; [exact B1|].
    intros e. rewrite B2, A2. cbn [existsb]. rewrite negb_orb, andb_true_iff. tauto.
Qed.

Lemma ns_remove_keys_spec : forall ks s, ns_inv s ->
  ns_inv (ns_remove_keys s ks) /\
  (forall name, ns_has (ns_remove_keys s ks) name
                = ns_has s name && negb (existsb (Z.eqb (ns_key s name)) ks)) /\
  (forall name, ns_has (ns_remove_keys s ks) name = true -> ns_key (ns_remove_keys s ks) name = ns_key s name).
Proof.
  intros ks s Hinv. destruct (ns_remove_keys_abs ks s Hinv) as [Hinv' H]. split; [exact Hinv'|].
  destruct (ns_filter s _ (fun e => negb (existsb (Z.eqb (fst e)) ks)) Hinv Hinv' H) as [F1 F2]. cbn [fst] in F1, F2.
  split; [exact F1|]. intros name Hh. apply F2. rewrite F1 in Hh. apply andb_true_iff in Hh. apply Hh.
Qed.

Lemma ns_key_inj (s : nset) n n' : ds_inv s -> 0 <= n < thenum s -> 0 <= n' < thenum s -> ds_key s n = ds_key s n' -> n = n'.
Proof.
  intros Hi Hn Hn' E. destruct (ds_dense Z 0 s Hi) as (_ & _ & Hd & _).
  pose proof (Hd n Hn) as E1. pose proof (Hd n' Hn') as E2. rewrite E in E1. congruence.
Qed.

Lemma ns_remove_nums_spec : forall s nums, ns_inv s -> (forall n, In n nums -> 0 <= n < thenum s) ->
  ns_inv (ns_remove_nums s nums) /\
  (forall name, ns_has (ns_remove_nums s nums) name
                = ns_has s name && negb (existsb (Z.eqb (ns_number s name)) nums)) /\
  (forall name, ns_has (ns_remove_nums s nums) name = true -> ns_key (ns_remove_nums s nums) name = ns_key s name).
Proof.
  intros s nums Hinv Hr. unfold ns_remove_nums.
  destruct (ns_remove_keys_spec (map (ds_key s) nums) s Hinv) as (A1 & A2 & A3).
  split; [exact A1|]. split; [|exact A3]. intros name. rewrite A2.
  destruct (ns_has s name) eqn:Hh; [|reflexivity]. cbn [andb]. f_equal.
  destruct (ns_lookup s name (proj1 Hinv) Hh) as (Hrn & _ & Hk & _). destruct Hinv as [Hi _].
  clear A1 A2 A3. induction nums as [|n nums IH]; [reflexivity|]. cbn [map existsb].
  rewrite IH by (intros n' Hn'; apply Hr; right; exact Hn'). f_equal.
  assert (Hn : 0 <= n < thenum s) by (apply Hr; left; reflexivity).
  destruct (Z.eqb_spec (ns_number s name) n) as [E|E].
  - apply Z.eqb_eq. rewrite <- Hk, E. reflexivity.
  - apply Z.eqb_neq. intros C. apply E. apply (ns_key_inj s _ _ Hi Hrn Hn). congruence.
Qed.

Lemma surv_keys_in : forall perm l x, In x (surv_keys perm l) -> In x l.
Proof.
  induction perm as [|p perm IH]; intros [|e l] x; cbn [surv_keys]; try (intros []).
  destruct (0 <=? p); [intros [H|H]; [left; exact H | right; apply IH; exact H] | intros H; right; apply IH; exact H].
Qed.

Lemma surv_keys_nodup : forall perm l, NoDup l -> NoDup (surv_keys perm l).
Proof.
  induction perm as [|p perm IH]; intros [|e l] Hnd; cbn [surv_keys]; try constructor.
  inversion Hnd as [|? ? Hn Hd]; subst. destruct (0 <=? p); [|apply IH; exact Hd].
  constructor; [|apply IH; exact Hd]. intros C. apply Hn. apply surv_keys_in in C. exact C.
Qed.

Lemma a_remove_perm_in : forall perm (a : list (Z * Z)) e, In e (a_remove_perm perm a) -> In e a.
Proof.
  induction perm as [|p perm IH]; intros [|x a] e; cbn [a_remove_perm]; try (intros []).
  destruct (0 <=? p); [intros [H|H]; [left; exact H | right; apply IH; exact H] | intros H; right; apply IH; exact H].
Qed.

Lemma ns_remove_perm_spec : forall s perm, ns_inv s -> zlen perm = thenum s ->
  let s' := fst (ns_remove_perm s perm) in
  ns_inv s' /\ snd (ns_remove_perm s perm) = a_perm_out perm 0 /\
  ds_abs 0 s' = a_remove_perm perm (ds_abs 0 s) /\
  ns_names s' = surv_keys perm (ns_names s) /\
  (forall name, ns_has s' name = true -> ns_has s name = true /\ ns_key s' name = ns_key s name).
Proof.
  intros s perm Hinv Hl. pose proof Hinv as [Hi Hnd]. cbv zeta. unfold ns_remove_perm.
  destruct (ds_remove_perm_spec Z 0 s perm Hi Hl) as (P1 & P2 & P3 & _).
  assert (Hnames : ns_names (fst (ds_remove_perm s perm)) = surv_keys perm (ns_names s)).
  { unfold ns_names. rewrite P3. apply (a_remove_perm_map snd). }
  assert (Hinv' : ns_inv (fst (ds_remove_perm s perm))).
  { split; [exact P1 | rewrite Hnames; apply surv_keys_nodup; exact Hnd]. }
  split; [exact Hinv'|]. split; [exact P2|]. split; [exact P3|]. split; [exact Hnames|].
  intros name. apply (ns_sub s _ name Hinv P1). rewrite P3. intros e. apply a_remove_perm_in.
Qed.

Lemma ns_clear_spec : forall s, ns_inv s ->
  ns_inv (ns_clear s) /\ ns_names (ns_clear s) = [] /\ (forall name, ns_has (ns_clear s) name = false).
Proof.
  intros s [Hi _]. unfold ns_clear. destruct (ds_clear_spec Z 0 s Hi) as [C1 C2].
  assert (Hn : ns_names (ds_clear s) = []) by (unfold ns_names; rewrite C2; reflexivity).
  split; [split; [exact C1 | rewrite Hn; constructor]|]. split; [exact Hn|].
  intros name. apply ns_lookup_absent. rewrite Hn. intros [].
Qed.

Lemma ns_remax_spec : forall s m, ns_inv s ->
  ns_inv (ns_remax s m) /\ ds_abs 0 (ns_remax s m) = ds_abs 0 s /\
  (forall name, ns_has (ns_remax s m) name = ns_has s name /\ ns_number (ns_remax s m) name = ns_number s name /\
                ns_key (ns_remax s m) name = ns_key s name).
Proof.
  intros s m Hinv. pose proof Hinv as [Hi Hnd]. unfold ns_remax. destruct (ds_remax_spec Z 0 s m Hi) as (R1 & R2 & _).
  assert (Hn : ns_names (ds_remax 0 s m) = ns_names s) by (unfold ns_names; rewrite R2; reflexivity).
  assert (Hinv' : ns_inv (ds_remax 0 s m)) by (split; [exact R1 | rewrite Hn; exact Hnd]).
  split; [exact Hinv'|]. split; [exact R2|].
  intros name. assert (Hnum : ns_number (ds_remax 0 s m) name = ns_number s name) by (unfold ns_number; rewrite Hn; reflexivity).
  split; [unfold ns_has; rewrite Hnum; reflexivity|]. split; [exact Hnum|].
  apply (ns_filter s _ (fun _ => true) Hinv Hinv'); [|reflexivity]. intros e. rewrite R2. tauto.
Qed.

Lemma svs_ensure_spec : forall D d0 (s : ds D) n, ds_inv s -> 0 <= n ->
  ds_inv (svs_ensure d0 s n) /\ ds_abs d0 (svs_ensure d0 s n) = ds_abs d0 s /\
  thenum (svs_ensure d0 s n) = thenum s /\ thenum (svs_ensure d0 s n) + n <= themax (svs_ensure d0 s n).
Proof.
  intros D d0 s n Hi Hn. unfold svs_ensure.
  destruct (ds_remax_if D d0 s (themax s <? thenum s + n) (11 * themax s / 10 + 8 + n) Hi) as (R1 & R2 & R3 & R4).
  split; [exact R1|]. split; [exact R2|]. split; [exact R3|]. rewrite R3, R4.
  destruct (Z.ltb_spec (themax s) (thenum s + n)) as [Hlt|Hge]; [|lia]. pose proof (inv_max _ s Hi) as Hm.
  destruct (inv_bounds _ s Hi) as [Hb1 Hb2]. assert (themax s <= 11 * themax s / 10) by (apply Z.div_le_lower_bound; lia). lia.
Qed.

Lemma svs_add_spec : forall D d0 (s : ds D) x, ds_inv s ->
  let s' := fst (svs_add d0 s x) in let k := snd (svs_add d0 s x) in
  ds_inv s' /\ ds_abs d0 s' = ds_abs d0 s ++ [(k, x)] /\ ~ In k (a_keys (ds_abs d0 s)) /\
  thenum s' = thenum s + 1.
Proof.
  intros D d0 s x Hi. cbv zeta. unfold svs_add.
  destruct (svs_ensure_spec D d0 s 1 Hi ltac:(lia)) as (E1 & E2 & E3 & E4).
  pose proof (ds_add_spec D d0 (svs_ensure d0 s 1) x E1 ltac:(lia)) as Hadd. cbv zeta in Hadd.
  destruct Hadd as (A1 & A2 & A3 & _ & A5). rewrite E2 in A2, A3. rewrite E3 in A5.
  split; [exact A1|]. split; [exact A2|]. split; [exact A3 | exact A5].
Qed.

Lemma ht_get_app t r k : ht_get (t ++ r) k = match ht_get t k with Some v => Some v | None => ht_get r k end.
Proof.
  induction t as [|[k' v] t IH]; cbn [app ht_get]; [reflexivity|]. destruct (k' =? k); [reflexivity | exact IH].
Qed.

Lemma ht_add_get : forall t k v k', ht_has t k = false ->
  ht_get (ht_add t k v) k' = if k' =? k then Some v else ht_get t k'.
Proof.
  intros t k v k' Hh. unfold ht_add. rewrite ht_get_app. cbn [ht_get]. rewrite (Z.eqb_sym k k').
  destruct (Z.eqb_spec k' k) as [E|E].
  - subst k'. unfold ht_has in Hh. destruct (ht_get t k); [discriminate | reflexivity].
  - destruct (ht_get t k'); reflexivity.
Qed.

Lemma ht_remove_get : forall t k k', ht_get (ht_remove t k) k' = if k' =? k then None else ht_get t k'.
Proof.
  intros t k k'. unfold ht_remove. induction t as [|[k0 v] t IH]; cbn [filter ht_get fst].
  - destruct (k' =? k); reflexivity.
  - destruct (Z.eqb_spec k0 k) as [E|E]; cbn [negb].
    + rewrite IH. subst k0. rewrite (Z.eqb_sym k k'). destruct (k' =? k); reflexivity.
    + cbn [ht_get]. destruct (Z.eqb_spec k0 k') as [E'|E']; [|exact IH].
      subst k0. replace (k' =? k) with false by (symmetry; apply Z.eqb_neq; exact E). reflexivity.
Qed.

Lemma ht_add_has : forall t k v, ht_has t k = false -> ht_has (ht_add t k v) k = true.
Proof. intros t k v H. unfold ht_has. rewrite ht_add_get by exact H. rewrite Z.eqb_refl. reflexivity. Qed.

Lemma ht_remove_has : forall t k, ht_has (ht_remove t k) k = false.
Proof. intros t k. unfold ht_has. rewrite ht_remove_get, Z.eqb_refl. reflexivity. Qed.

(* The string memory of NameSet: every name of the set reads back as its own string before and after memPack / memRemax /
   add / removals.  region mem o k: the k characters from offset o. *)
Definition region {A} (mem : list A) (o k : nat) : list A := firstn k (skipn o mem).

Lemma region_app_l {A} (a y : list A) o k : (o + k <= length a)%nat -> region (a ++ y) o k = region a o k.
Proof.
  intros H. unfold region. rewrite skipn_app. replace (o - length a)%nat with 0%nat by lia. cbn [skipn].
  rewrite firstn_app, skipn_length. replace (k - (length a - o))%nat with 0%nat by lia. cbn [firstn]. apply app_nil_r.
Qed.

Lemma region_firstn {A} (b : list A) m o k : (o + k <= m)%nat -> region (firstn m b) o k = region b o k.
Proof. intros H. unfold region. rewrite skipn_firstn_comm, firstn_firstn. f_equal. lia. Qed.

Lemma region_prefix {A} (b y : list A) m o k : (o + k <= m)%nat -> (o + k <= length b)%nat ->
  region (firstn m b ++ y) o k = region b o k.
Proof.
  intros H1 H2. rewrite region_app_l by (rewrite firstn_length; lia). apply region_firstn. exact H1.
Qed.

Lemma write_at_zlen mem off s : 0 <= off -> off + zlen s <= zlen mem -> zlen (write_at mem off s) = zlen mem.
Proof. unfold write_at, zlen. intros H1 H2. rewrite !app_length, firstn_length, skipn_length. lia. Qed.

Lemma write_at_same mem off s : 0 <= off -> off <= zlen mem ->
  region (write_at mem off s) (Z.to_nat off) (length s) = s.
Proof.
  unfold write_at, region. intros H1 H2.
  assert (Hl : length (firstn (Z.to_nat off) mem) = Z.to_nat off) by (rewrite firstn_length; unfold zlen in *; lia).
  rewrite skipn_app, Hl, Nat.sub_diag. rewrite skipn_all2 by lia. cbn [skipn app]. apply firstn_app_length.
Qed.

Lemma write_at_other mem off s o k : 0 <= off -> off <= zlen mem -> (o + k <= Z.to_nat off)%nat ->
  region (write_at mem off s) o k = region mem o k.
Proof.
  unfold write_at. intros H1 H2 H3. apply region_prefix; [exact H3 | unfold zlen in *; lia].
Qed.

Lemma cstr_of_app s r : Forall (fun c => c <> 0) s -> cstr_of (s ++ 0 :: r) = s.
Proof.
  induction 1 as [|c s Hc Hs IH]; cbn [app cstr_of]; [reflexivity|].
  destruct (Z.eqb_spec c 0) as [E|E]; [contradiction|]. rewrite IH. reflexivity.
Qed.

Lemma nstr_nonzero id : Forall (fun c => c <> 0) (nstr id).
Proof.
  unfold nstr. apply Forall_forall. intros c Hc. apply repeat_spec in Hc. subst c.
  pose proof (Z.mod_pos_bound id 3 ltac:(lia)). lia.
Qed.

(* a stored name takes its characters and the terminating 0 *)
Definition nm_size (id : Z) : Z := zlen (nstr id) + 1.
Definition nm_stored (mem : list Z) (o id : Z) : Prop :=
  region mem (Z.to_nat o) (length (nstr id) + 1) = nstr id ++ [0].

Lemma nm_size_pos id : 1 <= nm_size id.
Proof. unfold nm_size. pose proof (zlen_nonneg (nstr id)). lia. Qed.

Lemma cstr_stored mem o id : nm_stored mem o id -> cstr mem o = nstr id.
Proof.
  unfold cstr, nm_stored, region. intros H.
  rewrite <- (firstn_skipn (length (nstr id) + 1) (skipn (Z.to_nat o) mem)). rewrite H.
  rewrite <- app_assoc. cbn [app]. apply cstr_of_app, nstr_nonzero.
Qed.

Lemma nm_lookup_in offs id : In id (map fst offs) -> exists o, nm_lookup offs id = Some o /\ In (id, o) offs.
Proof.
  induction offs as [|[i o] r IH]; cbn [map fst nm_lookup In]; [intros []|]. intros H.
  destruct (Z.eqb_spec i id) as [E|E].
  - subst i. exists o. split; [reflexivity | left; reflexivity].
  - destruct H as [H|H]; [contradiction|]. destruct (IH H) as (o' & H1 & H2). exists o'. split; [exact H1 | right; exact H2].
Qed.

(* bytes taken by the names of an offset table / of a list of identifiers *)
Definition offs_size (offs : list (Z * Z)) : Z := fold_right (fun e a => nm_size (fst e) + a) 0 offs.
Definition order_size (order : list Z) : Z := fold_right (fun id a => zlen (nstr id) + 1 + a) 0 order.

(* well-formedness: order = the identifiers of the names of the set, in any order *)
Record nm_wf (order : list Z) (st : nmem) : Prop := mk_nm_wf {
  wf_len : zlen (nm_mem st) = nm_max st;
  wf_used : 0 <= nm_used st <= nm_max st;
  wf_order : NoDup order;
  wf_nonneg : forall id, In id order -> 0 <= id;
  wf_ids : NoDup (map fst (nm_off st));
  wf_same : forall id, In id order <-> In id (map fst (nm_off st));
  wf_stored : forall id o, In (id, o) (nm_off st) ->
                0 <= o /\ o + nm_size id <= nm_used st /\ nm_stored (nm_mem st) o id;
  wf_sum : offs_size (nm_off st) <= nm_used st     (* the stored strings do not overlap: their sizes add up *)
}.

Lemma nm_name_wf : forall order st id, nm_wf order st -> In id order -> nm_name st id = nstr id.
Proof.
  intros order st id Hwf Hin. apply (wf_same _ _ Hwf) in Hin.
  destruct (nm_lookup_in _ _ Hin) as (o & Hl & Ho). unfold nm_name. rewrite Hl.
  apply cstr_stored. apply (wf_stored _ _ Hwf id o Ho).
Qed.

Lemma nm_name_agree order order' st st' id :
  nm_wf order st -> nm_wf order' st' -> In id order -> In id order' -> nm_name st' id = nm_name st id.
Proof. intros H H' Hi Hi'. rewrite (nm_name_wf _ _ _ H' Hi'), (nm_name_wf _ _ _ H Hi). reflexivity. Qed.

Lemma nm_wf_nil mem used mx : zlen mem = mx -> 0 <= used <= mx -> nm_wf [] (mkNM mem used mx []).
Proof.
  intros Hl Hu. constructor; cbn [nm_mem nm_used nm_max nm_off map];
    [exact Hl | exact Hu | constructor | intros id [] | constructor | reflexivity | intros id o [] | apply Hu].
Qed.

Lemma nm_init_wf : forall setmax mmax, 0 <= setmax -> nm_wf [] (nm_init setmax mmax).
Proof.
  intros setmax mmax Hs. unfold nm_init. set (m := if mmax <? 1 then 8 * setmax + 1 else mmax).
  assert (Hm : 0 <= m) by (unfold m; destruct (Z.ltb_spec mmax 1); lia).
  apply nm_wf_nil; [rewrite zlen_repeat|]; lia.
Qed.

Lemma nm_clear_wf : forall order st, nm_wf order st -> nm_wf [] (nm_clear st).
Proof.
  intros order st Hwf. pose proof (wf_used _ _ Hwf). apply nm_wf_nil; [apply (wf_len _ _ Hwf) | lia].
Qed.

Lemma offs_size_app a b : offs_size (a ++ b) = offs_size a + offs_size b.
Proof. unfold offs_size. induction a as [|e a IH]; cbn [app fold_right]; [lia | rewrite IH; lia]. Qed.

Lemma offs_size_order offs : offs_size offs = order_size (map fst offs).
Proof. unfold offs_size, order_size, nm_size. induction offs as [|e r IH]; cbn [map fold_right]; [reflexivity | rewrite IH; reflexivity]. Qed.

Lemma order_size_perm a b : Permutation a b -> order_size a = order_size b.
Proof. unfold order_size. induction 1; cbn [fold_right]; lia. Qed.

Lemma order_size_app a b : order_size (a ++ b) = order_size a + order_size b.
Proof. unfold order_size. induction a as [|e a IH]; cbn [app fold_right]; [lia | rewrite IH; lia]. Qed.

Lemma order_size_nonneg a : 0 <= order_size a.
Proof. unfold order_size. induction a as [|e a IH]; cbn [fold_right]; [lia|]. pose proof (zlen_nonneg (nstr e)). lia. Qed.

Lemma offs_size_filter p offs : offs_size (filter p offs) <= offs_size offs.
Proof.
  unfold offs_size. induction offs as [|e r IH]; cbn [filter fold_right]; [lia|].
  pose proof (nm_size_pos (fst e)). destruct (p e); cbn [fold_right]; lia.
Qed.

Lemma nm_wf_order_size order st : nm_wf order st -> order_size order = offs_size (nm_off st).
Proof.
  intros Hwf. rewrite offs_size_order. apply order_size_perm.
  apply NoDup_Permutation; [apply (wf_order _ _ Hwf) | apply (wf_ids _ _ Hwf) | apply (wf_same _ _ Hwf)].
Qed.

(* The operations change a well-formed memory in three ways: a name is appended at used, the memory beyond used is
   replaced, offsets are forgotten. *)
Lemma nm_wf_append order st id : nm_wf order st -> 0 <= id -> ~ In id order -> nm_used st + nm_size id <= nm_max st ->
  nm_wf (order ++ [id]) (mkNM (write_at (nm_mem st) (nm_used st) (nstr id ++ [0])) (nm_used st + nm_size id) (nm_max st)
                              (nm_off st ++ [(id, nm_used st)])).
Proof.
  intros [W1 W2 W3 W4 W5 W6 W7 W8] Hid Hnin Hfit. pose proof (nm_size_pos id) as Hp.
  assert (Hz : zlen (nstr id ++ [0]) = nm_size id) by (rewrite zlen_app; reflexivity).
  constructor; cbn [nm_mem nm_used nm_max nm_off].
  - rewrite write_at_zlen; lia.
  - lia.
  - apply NoDup_snoc; assumption.
  - intros i Hi. apply in_app_or in Hi. destruct Hi as [Hi|[Hi|[]]]; [apply W4; exact Hi | lia].
  - rewrite map_app. apply NoDup_snoc; [rewrite <- W6|]; assumption.
  - intros i. rewrite map_app, !in_app_iff, (W6 i). reflexivity.
  - intros i o Hio. apply in_app_or in Hio. destruct Hio as [Hio|[Hio|[]]].
    + destruct (W7 i o Hio) as (A1 & A2 & A3). split; [exact A1|]. split; [lia|].
      unfold nm_stored. rewrite write_at_other; [exact A3 | lia | lia|]. unfold nm_size, zlen in *. lia.
    + inversion Hio; subst i o. split; [lia|]. split; [lia|]. unfold nm_stored.
      replace (length (nstr id) + 1)%nat with (length (nstr id ++ [0])) by (rewrite app_length; reflexivity).
      apply write_at_same; lia.
  - rewrite offs_size_app. unfold offs_size at 2. cbn [fold_right fst]. lia.
Qed.

Lemma nm_wf_prefix order st m y mx : nm_wf order st -> (Z.to_nat (nm_used st) <= m)%nat ->
  zlen (firstn m (nm_mem st) ++ y) = mx -> nm_used st <= mx ->
  nm_wf order (mkNM (firstn m (nm_mem st) ++ y) (nm_used st) mx (nm_off st)).
Proof.
  intros [W1 W2 W3 W4 W5 W6 W7 W8] Hm Hl Hu. constructor; cbn [nm_mem nm_used nm_max nm_off]; try assumption; [lia|].
  intros id o Hio. destruct (W7 id o Hio) as (A1 & A2 & A3). split; [exact A1|]. split; [exact A2|].
  unfold nm_stored in *. rewrite region_prefix; [exact A3 | |]; unfold nm_size, zlen in *; lia.
Qed.

(* memPack: the names are appended, in the given order, to an empty buffer *)
Lemma nm_pack_fold old mx : forall todo done buf last offs,
  (forall id, In id todo -> 0 <= id /\ nm_name old id = nstr id) -> NoDup (done ++ todo) ->
  nm_wf done (mkNM buf last mx offs) -> last + order_size todo <= mx ->
  exists buf' offs',
    fold_left (nm_pack_step old) todo (buf, last, offs) = (buf', last + order_size todo, offs') /\
    nm_wf (done ++ todo) (mkNM buf' (last + order_size todo) mx offs').
Proof.
  induction todo as [|id todo IH]; intros done buf last offs Hn Hnd Hwf Hfit.
  - exists buf, offs. change (order_size []) with 0. rewrite Z.add_0_r, app_nil_r. auto.
  - change (order_size (id :: todo)) with (nm_size id + order_size todo) in *.
    pose proof (order_size_nonneg todo) as Hnn. destruct (Hn id (or_introl eq_refl)) as [Hid Hname].
    pose proof (NoDup_remove_2 _ _ _ Hnd) as Hnew.
    cbn [fold_left]. unfold nm_pack_step at 2. rewrite Hname.
    replace (last + zlen (nstr id) + 1) with (last + nm_size id) by (unfold nm_size; lia).
    rewrite (app_cons_snoc done id todo) in Hnd |- *. rewrite Z.add_assoc in Hfit |- *.
    apply IH; [intros i Hi; apply Hn; right; exact Hi | exact Hnd | | exact Hfit].
    apply (nm_wf_append done (mkNM buf last mx offs)); [exact Hwf | exact Hid | | cbn [nm_used nm_max]; lia].
    intros C. apply Hnew, in_or_app. left. exact C.
Qed.

Lemma nm_pack_spec : forall order st, nm_wf order st ->
  nm_wf order (nm_pack order st) /\
  (forall id, In id order -> nm_name (nm_pack order st) id = nm_name st id) /\
  nm_used (nm_pack order st) <= nm_used st /\ nm_max (nm_pack order st) = nm_max st /\
  nm_used (nm_pack order st) = fold_right (fun id a => zlen (nstr id) + 1 + a) 0 order.
Proof.
  intros order st Hwf. pose proof (wf_used _ _ Hwf) as Hu. pose proof (wf_len _ _ Hwf) as Hlen.
  assert (Hsum : order_size order <= nm_used st) by (rewrite (nm_wf_order_size _ _ Hwf); apply (wf_sum _ _ Hwf)).
  pose proof (order_size_nonneg order) as Hnn.
  destruct (nm_pack_fold st (nm_used st) order [] (repeat 0 (Z.to_nat (nm_used st))) 0 [])
    as (buf' & offs' & E & Hwfb).
  { intros id Hid. split; [apply (wf_nonneg _ _ Hwf), Hid | apply (nm_name_wf order); assumption]. }
  { apply (wf_order _ _ Hwf). }
  { apply nm_wf_nil; [rewrite zlen_repeat|]; lia. }
  { lia. }
  rewrite Z.add_0_l in *. cbn [app] in Hwfb. pose proof (wf_len _ _ Hwfb) as Hlb. cbn [nm_mem nm_max] in Hlb.
  assert (Hwf' : nm_wf order (nm_pack order st)).
  { unfold nm_pack. rewrite E. apply (nm_wf_prefix order _ _ _ _ Hwfb); cbn [nm_used nm_mem]; [lia | | lia].
    fold (copy_prefix (order_size order) buf' (nm_mem st)). rewrite zlen_copy_prefix; lia. }
  split; [exact Hwf'|]. split.
  { intros id Hid. apply (nm_name_agree order order); assumption. }
  unfold nm_pack. rewrite E. cbn [nm_used nm_max]. split; [exact Hsum|]. split; reflexivity.
Qed.

Lemma nm_remax_spec : forall order st m, nm_wf order st ->
  nm_wf order (nm_remax st m) /\
  (forall id, In id order -> nm_name (nm_remax st m) id = nm_name st id) /\
  nm_used (nm_remax st m) = nm_used st /\ nm_max (nm_remax st m) = Z.max m (nm_used st).
Proof.
  intros order st m Hwf. pose proof (wf_used _ _ Hwf) as Hu.
  assert (Hm : (if m <? nm_used st then nm_used st else m) = Z.max m (nm_used st)) by (destruct (Z.ltb_spec m (nm_used st)); lia).
  assert (Hwf' : nm_wf order (nm_remax st m)).
  { unfold nm_remax. rewrite Hm. apply (nm_wf_prefix order st _ _ _ Hwf); [lia | | lia].
    fold (resize 0 (Z.max m (nm_used st)) (nm_mem st)). apply zlen_resize. lia. }
  split; [exact Hwf'|]. split.
  { intros id Hid. apply (nm_name_agree order order); assumption. }
  unfold nm_remax. cbn [nm_used nm_max]. split; [reflexivity | exact Hm].
Qed.

(* add: after packing / growing when the name does not fit, the name is appended *)
Lemma nm_add_spec : forall order st id, nm_wf order st -> 0 <= id -> ~ In id order ->
  nm_wf (order ++ [id]) (nm_add order st id) /\ nm_name (nm_add order st id) id = nstr id /\
  (forall other, In other order -> nm_name (nm_add order st id) other = nm_name st other).
Proof.
  intros order st id Hwf Hid Hnin. unfold nm_add. cbv zeta.
  set (len := zlen (nstr id)). pose proof (zlen_nonneg (nstr id)) as Hlen0. fold len in Hlen0.
  set (st1 := if nm_max st <=? nm_used st + len then _ else st).
  assert (H1 : nm_wf order st1 /\ nm_used st1 + len + 1 <= nm_max st1).
  { unfold st1. destruct (Z.leb_spec (nm_max st) (nm_used st + len)) as [Hfull|Hfree]; [|split; [exact Hwf | lia]].
    destruct (nm_pack_spec order st Hwf) as (P1 & _ & _ & _ & _).
    destruct (Z.leb_spec (nm_max (nm_pack order st)) (nm_used (nm_pack order st) + len)) as [Hfull2|Hfree2];
      [|split; [exact P1 | lia]].
    destruct (nm_remax_spec order _ (2 * nm_max (nm_pack order st) + 9 + len) P1) as (R1 & _ & R3 & R4).
    split; [exact R1|]. rewrite R3, R4. pose proof (wf_used _ _ P1). lia. }
  destruct H1 as [Hwf1 Hfit]. clearbody st1. rewrite <- Z.add_assoc in Hfit |- *.
  pose proof (nm_wf_append order st1 id Hwf1 Hid Hnin Hfit) as Hwf'.
  split; [exact Hwf'|]. split.
  - apply (nm_name_wf (order ++ [id])); [exact Hwf' | apply in_or_app; right; left; reflexivity].
  - intros other Ho. apply (nm_name_agree order (order ++ [id])); try assumption. apply in_or_app. left. exact Ho.
Qed.

Lemma in_map_fst_filter_mem rem (offs : list (Z * Z)) id :
  In id (map fst (filter (fun e => existsb (Z.eqb (fst e)) rem) offs)) <-> In id rem /\ In id (map fst offs).
Proof.
  rewrite !in_map_iff. split.
  - intros ([i o] & <- & H). apply filter_In in H. destruct H as [H Hex]. apply existsb_exists in Hex.
    destruct Hex as (x & Hx & Ex). apply Z.eqb_eq in Ex. cbn [fst] in *. subst x. split; [exact Hx | exists (i, o); auto].
  - intros [Hid ([i o] & <- & H)]. exists (i, o). split; [reflexivity|]. apply filter_In. split; [exact H|].
    apply existsb_exists. exists i. split; [exact Hid | apply Z.eqb_refl].
Qed.

(* removals keep the memory and forget offsets *)
Lemma nm_keep_spec : forall order st rem, nm_wf order st -> NoDup rem -> (forall id, In id rem -> In id order) ->
  nm_wf rem (nm_keep rem st) /\ (forall id, In id rem -> nm_name (nm_keep rem st) id = nm_name st id).
Proof.
  intros order st rem Hwf Hnd Hsub.
  assert (Hwf' : nm_wf rem (nm_keep rem st)).
  { destruct Hwf as [W1 W2 W3 W4 W5 W6 W7 W8]. constructor; cbn [nm_keep nm_mem nm_used nm_max nm_off]; try assumption.
    - intros id Hid. apply W4, Hsub, Hid.
    - apply NoDup_map_filter; exact W5.
    - intros id. rewrite in_map_fst_filter_mem, <- W6. split; [auto | tauto].
    - intros id o Hio. apply filter_In in Hio. apply W7, Hio.
    - eapply Z.le_trans; [apply offs_size_filter | exact W8]. }
  split; [exact Hwf'|]. intros id Hid. apply (nm_name_agree order rem); auto.
Qed.
