(* C18 - distinct solver objects can be used concurrently.  Partial: the logic that a model can carry.
   Property theorems only; each is closed by a lemma of Globals_Proofs.v; the table fact is computed over
   gen/Gen_Globals.v. *)
From Coq Require Import List String Bool.
From SV Require Import GlobalsModel Globals_Proofs.
From SVG Require Import Gen_Globals.
Import ListNotations.

(* Every object with static storage duration that the compiled library defines is const, thread-local, or written only
   during (thread-safe) static / guarded initialisation - regenerated from the object files of the current tree. *)
Theorem C18_shared_state_immutable : globals_harmless gen_globals = true.
Proof. vm_compute. reflexivity. Qed.
Print Assumptions C18_shared_state_immutable.

(* Steps of different threads that write only cells of their own object commute ... *)
Theorem C18_disjoint_steps_commute :
  forall (m : mem) (a b : step), well_scoped a -> well_scoped b -> actor a <> actor b ->
    forall c, apply (apply m a) b c = apply (apply m b) a c.
Proof. exact steps_commute. Qed.
Print Assumptions C18_disjoint_steps_commute.

(* ... and for EVERY interleaving of such steps (any number of threads, any schedule) each thread observes on its own
   object exactly what it observes when its steps run alone. *)
Theorem C18_every_interleaving_equals_running_alone :
  forall (l : list step) (m m' : mem) i, Forall well_scoped l -> (forall k, m (Own i k) = m' (Own i k)) ->
    forall k, run m l (Own i k) = run m' (mine i l) (Own i k).
Proof. intros l m m' i Hw. apply interleaving_invisible, (Forall_impl _ (fun s H _ => H) Hw). Qed.
Print Assumptions C18_every_interleaving_equals_running_alone.

Example C18_ex_globals_nonempty : List.length gen_globals <> 0.
Proof. vm_compute. discriminate. Qed.
Example C18_ex_interleaving :
  let l := [ {| actor := 1; target := Own 1 0; value := 5 |}; {| actor := 2; target := Own 2 0; value := 7 |};
             {| actor := 1; target := Own 1 1; value := 6 |} ] in
  Forall well_scoped l /\ run (fun _ => 0) l (Own 1 1) = 6 /\ run (fun _ => 0) l (Own 2 0) = 7.
Proof. simpl. repeat split; repeat constructor; reflexivity. Qed.
