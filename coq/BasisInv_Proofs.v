(* C05 - lemmas about coq/BasisInvModel.v.  Column representation: the factorisation B' = D_r B D_bind of the scaled
   basis matrix and the transfer of exact solves / products through the scaling glue.  Row representation: getBasisInd
   names the complement of the row basis ([compl]); from an exact solve with the row basis the glue assembles a row
   (solve) or a column (coSolve) of the inverse of the user's basis matrix, in the plain branches and in the branches as
   repaired.  Soundness of the checkers.  Witnesses for the three shipped branches that do not return the answer, and
   instances (the ex_ and exr_ definitions) that satisfy the hypotheses of the column- and row-representation theorems. *)
From Coq Require Import QArith Qabs Qpower List ZArith Bool Arith Lia Lqa Setoid Morphisms FinFun.
From SV Require Import ListAux Vec BasisInvModel.
Import ListNotations.
Local Open Scope Q_scope.

Lemma two_nz : ~ (2 # 1) == 0.
Proof. intro H. discriminate H. Qed.

Lemma pow2_pos k : 0 < pow2 k.
Proof. unfold pow2. apply Qpower_0_lt. reflexivity. Qed.

Lemma pow2_nz k : ~ pow2 k == 0.
Proof. apply Qpower_not_0, two_nz. Qed.

Lemma pow2_0 : pow2 0 == 1.
Proof. reflexivity. Qed.

Lemma pow2_add a b : pow2 (a + b) == pow2 a * pow2 b.
Proof. unfold pow2. apply Qpower_plus. exact two_nz. Qed.

Lemma pow2_opp_r a : pow2 a * pow2 (- a) == 1.
Proof. rewrite <- pow2_add. rewrite Z.add_opp_diag_r. reflexivity. Qed.

Lemma pow2_opp_l a : pow2 (- a) * pow2 a == 1.
Proof. rewrite Qmult_comm. apply pow2_opp_r. Qed.

Lemma pow2_cancel k a b : pow2 k * a == pow2 k * b -> a == b.
Proof. apply Qmult_inj_l, pow2_nz. Qed.

Lemma vnth_map (A : Type) (f : A -> Q) l t d : (t < length l)%nat -> vnth (map f l) t = f (nth t l d).
Proof.
  revert t. induction l as [|a l IH]; intros t Ht; simpl in *; [lia|].
  destruct t; simpl; [reflexivity | apply IH; lia].
Qed.

Lemma veq_refl u : veq u u.
Proof. intro i. reflexivity. Qed.

Lemma veq_sym u v : veq u v -> veq v u.
Proof. intros H i. symmetry. apply H. Qed.

Lemma veq_trans u v w : veq u v -> veq v w -> veq u w.
Proof. intros H1 H2 i. rewrite (H1 i). apply H2. Qed.

Lemma vnth_F2 u v : Forall2 Qeq u v -> forall i, vnth u i == vnth v i.
Proof.
  induction 1 as [|a b u v Hab _ IH]; intros i.
  - reflexivity.
  - destruct i as [|i]; simpl; [exact Hab | apply IH].
Qed.

Lemma F2_refl u : Forall2 Qeq u u.
Proof. induction u; constructor; [reflexivity | assumption]. Qed.

Lemma dot_F2_r x u v : Forall2 Qeq u v -> dot x u == dot x v.
Proof.
  intros H. revert x. induction H as [|a b u v Hab _ IH]; intros [|c x]; simpl; try reflexivity.
  rewrite Hab, IH. reflexivity.
Qed.

Lemma dot_F2_l u v y : Forall2 Qeq u v -> dot u y == dot v y.
Proof. intros H. rewrite (dot_comm u y), (dot_comm v y). apply dot_F2_r. exact H. Qed.

Lemma vnth_vzero n i : vnth (vzero n) i == 0.
Proof.
  revert i. induction n as [|n IH]; intros i.
  - destruct i; reflexivity.
  - destruct i; simpl; [reflexivity | apply IH].
Qed.

Lemma vzero_length n : length (vzero n) = n.
Proof. apply repeat_length. Qed.

Lemma unit_vec_length m k : length (unit_vec m k) = m.
Proof.
  revert k. induction m as [|m IH]; intros k; simpl; [reflexivity|].
  destruct k; simpl; [rewrite vzero_length | rewrite IH]; reflexivity.
Qed.

Lemma vnth_unit_vec m k i : vnth (unit_vec m k) i == if (Nat.eqb i k && Nat.ltb k m)%bool then 1 else 0.
Proof.
  revert k i. induction m as [|m IH]; intros k i.
  - rewrite vnth_nil, andb_false_r. reflexivity.
  - destruct k as [|k]; destruct i as [|i]; simpl; try reflexivity; [apply vnth_vzero | apply IH].
Qed.

Lemma vnth_unit_same m k : (k < m)%nat -> vnth (unit_vec m k) k == 1.
Proof. intros H. rewrite vnth_unit_vec, Nat.eqb_refl, (proj2 (Nat.ltb_lt k m) H). reflexivity. Qed.

Lemma vnth_unit_other m k i : i <> k -> vnth (unit_vec m k) i == 0.
Proof. intros H. rewrite vnth_unit_vec, (proj2 (Nat.eqb_neq i k) H). reflexivity. Qed.

Lemma vnth_unit_eq m k i : (k < m)%nat -> vnth (unit_vec m k) i == (if Nat.eqb i k then 1 else 0).
Proof. intros H. rewrite vnth_unit_vec, (proj2 (Nat.ltb_lt k m) H), andb_true_r. reflexivity. Qed.

(* the unit vector is supported on its own index: any weight can be moved from k to i *)
Lemma unit_vec_diag (f : nat -> Q) m k i : f k * vnth (unit_vec m k) i == f i * vnth (unit_vec m k) i.
Proof. rewrite vnth_unit_vec. destruct (Nat.eqb_spec i k) as [->|_]; [reflexivity | simpl; ring]. Qed.

(* an equation between a vector scaled entry by entry and a scaled unit vector loses both scalings *)
Lemma scaled_unit_cancel (e : nat -> Z) m k a i :
  pow2 (e i) * a == pow2 (e k) * vnth (unit_vec m k) i -> a == vnth (unit_vec m k) i.
Proof. rewrite (unit_vec_diag (fun t => pow2 (e t))). apply pow2_cancel. Qed.

Lemma dot_vzero x n : dot x (vzero n) == 0.
Proof.
  revert x. induction n as [|n IH]; intros [|a x]; simpl; try reflexivity.
  rewrite IH. ring.
Qed.

Lemma dot_unit x m k : (k < m)%nat -> dot x (unit_vec m k) == vnth x k.
Proof.
  revert x k. induction m as [|m IH]; intros x k H; [lia|].
  destruct x as [|a x]; simpl.
  - rewrite ?vnth_nil. reflexivity.
  - destruct k as [|k]; simpl.
    + rewrite dot_vzero. ring.
    + rewrite IH by lia. ring.
Qed.

Lemma dscale_length es v : length (dscale es v) = length v.
Proof. revert es. induction v as [|a v IH]; intros es; simpl; [reflexivity | rewrite IH; reflexivity]. Qed.

Lemma vnth_dscale es v i : vnth (dscale es v) i == vnth v i * pow2 (nth i es 0%Z).
Proof.
  revert es i. induction v as [|a v IH]; intros es i; simpl.
  - rewrite ?vnth_nil. ring.
  - destruct i as [|i]; simpl.
    + rewrite hd_nth_0. reflexivity.
    + rewrite IH, nth_tl. reflexivity.
Qed.

Lemma dot_dscale es x v : dot x (dscale es v) == dot (dscale es x) v.
Proof.
  revert es v. induction x as [|a x IH]; intros es [|b v]; simpl; try reflexivity.
  rewrite IH. ring.
Qed.

Lemma nth_zneg es i : nth i (zneg es) 0%Z = (- nth i es 0)%Z.
Proof. unfold zneg. exact (map_nth Z.opp es 0%Z i). Qed.

Lemma dscale_inv_l es v : Forall2 Qeq (dscale es (dscale (zneg es) v)) v.
Proof.
  revert es. induction v as [|a v IH]; intros es; simpl; constructor.
  - destruct es as [|e es]; cbn [zneg map hd].
    + change (pow2 0) with 1. ring.
    + rewrite <- Qmult_assoc, pow2_opp_l. ring.
  - destruct es as [|e es]; simpl; apply IH.
Qed.

(* one column at a time, whatever the length of x *)
Lemma vnth_mulv_cons col B x i : vnth (mulv (col :: B) x) i == vnth x 0 * vnth col i + vnth (mulv B (tl x)) i.
Proof.
  unfold mulv. destruct x as [|a x]; cbn [tmat_vec tl vnth].
  - destruct B; cbn [tmat_vec]; rewrite vnth_nil; ring.
  - rewrite vnth_vadd, vnth_vscale. reflexivity.
Qed.

Lemma mulv_ext A B : Forall2 (Forall2 Qeq) A B -> forall x i, vnth (mulv A x) i == vnth (mulv B x) i.
Proof.
  induction 1 as [|a b A B Hab _ IH]; intros x i; [reflexivity|].
  rewrite !vnth_mulv_cons, IH, (vnth_F2 _ _ Hab i). reflexivity.
Qed.

Lemma mulv_x_ext B x x' : Forall2 Qeq x x' -> forall i, vnth (mulv B x) i == vnth (mulv B x') i.
Proof.
  intros H. revert B. induction H as [|a b x x' Hab _ IH]; intros [|c B] i; try reflexivity.
  rewrite !vnth_mulv_cons. cbn [vnth tl]. rewrite IH, Hab. reflexivity.
Qed.

Lemma vnth_mulv_cscale d B x i : vnth (mulv (cscale d B) x) i == vnth (mulv B (dscale d x)) i.
Proof.
  unfold mulv. revert d x. induction B as [|col B IH]; intros d x; simpl.
  - reflexivity.
  - destruct x as [|a x]; simpl; [reflexivity|].
    rewrite !vnth_vadd, !vnth_vscale, IH. ring.
Qed.

Lemma vnth_mulv_rscale r B x i : vnth (mulv (rscale r B) x) i == pow2 (nth i r 0%Z) * vnth (mulv B x) i.
Proof.
  unfold rscale. revert x. induction B as [|col B IH]; intros x; cbn [map].
  - unfold mulv. cbn [tmat_vec]. rewrite vnth_nil. ring.
  - rewrite !vnth_mulv_cons, IH, vnth_dscale. ring.
Qed.

Lemma vnth_vmul x B j : vnth (vmul x B) j == dot x (nth j B []).
Proof.
  unfold vmul. revert j. induction B as [|col B IH]; intros j; simpl.
  - rewrite ?vnth_nil. destruct j; rewrite dot_nil_r; reflexivity.
  - destruct j; simpl; [reflexivity | apply IH].
Qed.

Lemma vmul_length x B : length (vmul x B) = length B.
Proof. apply map_length. Qed.

Lemma nth_F2 A B : Forall2 (Forall2 Qeq) A B -> forall j, Forall2 Qeq (nth j A []) (nth j B []).
Proof.
  induction 1 as [|a b A B Hab _ IH]; intros j.
  - destruct j; constructor.
  - destruct j; simpl; [exact Hab | apply IH].
Qed.

Lemma vmul_ext A B x : Forall2 (Forall2 Qeq) A B -> forall j, vnth (vmul x A) j == vnth (vmul x B) j.
Proof. intros H j. rewrite !vnth_vmul. apply dot_F2_r. apply nth_F2. exact H. Qed.

Lemma vmul_x_ext B x x' : Forall2 Qeq x x' -> forall j, vnth (vmul x B) j == vnth (vmul x' B) j.
Proof. intros H j. rewrite !vnth_vmul. apply dot_F2_l. exact H. Qed.

Lemma nth_cscale d B j : nth j (cscale d B) [] = vscale (pow2 (nth j d 0%Z)) (nth j B []).
Proof.
  revert d j. induction B as [|col B IH]; intros d j; simpl.
  - destruct j; reflexivity.
  - destruct j; simpl.
    + rewrite hd_nth_0. reflexivity.
    + rewrite IH, nth_tl. reflexivity.
Qed.

Lemma nth_rscale r B j : nth j (rscale r B) [] = dscale r (nth j B []).
Proof. unfold rscale. exact (map_nth (dscale r) B [] j). Qed.

Lemma vnth_vmul_scaled d r B x j :
  vnth (vmul x (cscale d (rscale r B))) j == pow2 (nth j d 0%Z) * vnth (vmul (dscale r x) B) j.
Proof. rewrite !vnth_vmul, nth_cscale, nth_rscale, dot_vscale_r, dot_dscale. reflexivity. Qed.

Lemma vnth_mulv_scaled d r B x i :
  vnth (mulv (cscale d (rscale r B)) x) i == pow2 (nth i r 0%Z) * vnth (mulv B (dscale d x)) i.
Proof.
  rewrite vnth_mulv_cscale, vnth_mulv_rscale. reflexivity.
Qed.

Lemma scale_col_factor r cj col : Forall2 Qeq (scale_col r cj col) (vscale (pow2 cj) (dscale r col)).
Proof.
  revert r. induction col as [|a col IH]; intros r; simpl; constructor.
  - rewrite pow2_add. ring.
  - apply IH.
Qed.

Lemma F2_of_vnth (u v : vec) : length u = length v -> (forall i, vnth u i == vnth v i) -> Forall2 Qeq u v.
Proof.
  revert v. induction u as [|a u IH]; intros [|b v] L H; simpl in L; try discriminate; constructor.
  - exact (H 0%nat).
  - apply IH; [lia | intros i; exact (H (S i))].
Qed.

Lemma vnth_scale_col r cj col i : vnth (scale_col r cj col) i == vnth col i * pow2 (nth i r 0%Z) * pow2 cj.
Proof. rewrite (vnth_F2 _ _ (scale_col_factor r cj col) i), vnth_vscale, vnth_dscale. ring. Qed.

Lemma scale_col_length r cj col : length (scale_col r cj col) = length col.
Proof. revert r. induction col as [|a col IH]; intros r; simpl; [reflexivity | rewrite IH; reflexivity]. Qed.

Lemma nth_scale_cols r c cols j : nth j (scale_cols r c cols) [] = scale_col r (nth j c 0%Z) (nth j cols []).
Proof.
  revert c j. induction cols as [|col cols IH]; intros c j; simpl.
  - destruct j; reflexivity.
  - destruct j; simpl.
    + rewrite hd_nth_0. reflexivity.
    + rewrite IH, nth_tl. reflexivity.
Qed.

Lemma scale_cols_length r c cols : length (scale_cols r c cols) = length cols.
Proof. revert c. induction cols as [|col cols IH]; intros c; simpl; [reflexivity | rewrite IH; reflexivity]. Qed.

Lemma vzero_scaled p r n : Forall2 Qeq (vzero n) (vscale p (dscale r (vzero n))).
Proof.
  revert r. induction n as [|n IH]; intros r; simpl; constructor.
  - ring.
  - apply IH.
Qed.

Lemma unit_vec_scaled r m i :
  Forall2 Qeq (unit_vec m i) (vscale (pow2 (- nth i r 0%Z)) (dscale r (unit_vec m i))).
Proof.
  revert r i. induction m as [|m IH]; intros r i; simpl.
  - constructor.
  - destruct i as [|i]; simpl; constructor.
    + rewrite hd_nth_0, (Qmult_comm 1), Qmult_1_r. symmetry. apply pow2_opp_l.
    + apply vzero_scaled.
    + ring.
    + rewrite <- nth_tl. apply IH.
Qed.

Lemma basis_col_scaled r c p b :
  Forall2 Qeq (basis_col (scale r c p) b) (vscale (pow2 (bind_exp r c b)) (dscale r (basis_col p b))).
Proof.
  unfold basis_col, bind_exp. simpl. destruct (0 <=? b)%Z.
  - rewrite nth_scale_cols. apply scale_col_factor.
  - apply unit_vec_scaled.
Qed.

Lemma scaled_basis_factorisation r c p bind :
  Forall2 (Forall2 Qeq) (basis_matrix (scale r c p) bind)
          (cscale (dbind r c bind) (rscale r (basis_matrix p bind))).
Proof.
  unfold basis_matrix, dbind, rscale. induction bind as [|b bind IH]; simpl; constructor.
  - apply basis_col_scaled.
  - exact IH.
Qed.

(* the two transfer identities: products with the stored (scaled) basis in terms of the user's basis *)
Lemma mulv_scaled_basis r c p bind x i :
  vnth (mulv (basis_matrix (scale r c p) bind) x) i ==
  pow2 (nth i r 0%Z) * vnth (mulv (basis_matrix p bind) (dscale (dbind r c bind) x)) i.
Proof.
  rewrite (mulv_ext _ _ (scaled_basis_factorisation r c p bind)). apply vnth_mulv_scaled.
Qed.

Lemma vmul_scaled_basis r c p bind x j :
  vnth (vmul x (basis_matrix (scale r c p) bind)) j ==
  pow2 (nth j (dbind r c bind) 0%Z) * vnth (vmul (dscale r x) (basis_matrix p bind)) j.
Proof.
  rewrite (vmul_ext _ _ x (scaled_basis_factorisation r c p bind)). apply vnth_vmul_scaled.
Qed.

Lemma nth_dbind r c bind k : (k < length bind)%nat -> nth k (dbind r c bind) 0%Z = bind_exp r c (nth k bind 0%Z).
Proof. intros H. apply nth_map_lt, H. Qed.

Section ColumnRep.
  Variables (p : lpmat) (r c : list Z) (bind : list Z).
  Let m := lm_rows p.
  Let B := basis_matrix p bind.
  Let Bs := basis_matrix (scale r c p) bind.          (* the matrix the solver has factorised *)
  Variables (solve coSolve : vec -> vec).
  Hypothesis solve_exact : forall b, length b = m -> veq (mulv Bs (solve b)) b.
  Hypothesis coSolve_exact : forall b, length b = m -> veq (vmul (coSolve b) Bs) b.
  Hypothesis bind_len : length bind = m.

  Lemma binv_col_unscale_any k : veq (mulv B (binv_col_colrep solve true r c m bind k)) (unit_vec m k).
  Proof.
    intros i. unfold binv_col_colrep.
    set (rhs := vscale (pow2 (nth k r 0%Z)) (unit_vec m k)).
    assert (L : length rhs = m) by (unfold rhs, vscale; rewrite map_length; apply unit_vec_length).
    pose proof (solve_exact rhs L i) as H. unfold Bs in H. rewrite mulv_scaled_basis in H.
    unfold rhs in H. rewrite vnth_vscale in H.
    exact (scaled_unit_cancel (fun t => nth t r 0%Z) m k _ i H).
  Qed.

  Lemma binv_col_unscale k :
    (k < m)%nat -> veq (mulv B (binv_col_colrep solve true r c m bind k)) (unit_vec m k).
  Proof. intros _. apply binv_col_unscale_any. Qed.

  Lemma binv_row_unscale k :
    (k < m)%nat -> veq (vmul (binv_row_colrep coSolve true r c m bind k) B) (unit_vec m k).
  Proof.
    intros Hk j. unfold binv_row_colrep. rewrite <- (nth_dbind r c bind k) by (rewrite bind_len; exact Hk).
    set (rhs := vscale (pow2 (nth k (dbind r c bind) 0%Z)) (unit_vec m k)).
    assert (L : length rhs = m) by (unfold rhs, vscale; rewrite map_length; apply unit_vec_length).
    pose proof (coSolve_exact rhs L j) as H. unfold Bs in H. rewrite vmul_scaled_basis in H.
    unfold rhs in H at 2. rewrite vnth_vscale in H.
    exact (scaled_unit_cancel (fun t => nth t (dbind r c bind) 0%Z) m k _ j H).
  Qed.

  Lemma binv_times_vec_unscale v :
    length v = m -> veq (mulv B (binv_times_vec_colrep solve true r c bind v)) v.
  Proof.
    intros Hv i. unfold binv_times_vec_colrep.
    assert (L : length (dscale r v) = m) by (rewrite dscale_length; exact Hv).
    pose proof (solve_exact _ L i) as H. unfold Bs in H. rewrite mulv_scaled_basis, vnth_dscale in H.
    rewrite (Qmult_comm (vnth v i)) in H. exact (pow2_cancel _ _ _ H).
  Qed.

  Lemma mult_unscale v : veq (mult_colrep true r c Bs bind v) (mulv B v).
  Proof.
    intros i. unfold mult_colrep, Bs. rewrite vnth_dscale, mulv_scaled_basis, nth_zneg.
    rewrite (mulv_x_ext (basis_matrix p bind) _ v (dscale_inv_l (dbind r c bind) v) i). unfold B.
    rewrite (Qmult_comm (pow2 (nth i r 0%Z))), <- Qmult_assoc, pow2_opp_r. ring.
  Qed.

  Lemma multT_unscale v : veq (multT_colrep true r c Bs bind v) (vmul v B).
  Proof.
    intros j. unfold multT_colrep, Bs. rewrite vnth_dscale, vmul_scaled_basis, nth_zneg.
    rewrite (vmul_x_ext (basis_matrix p bind) _ v (dscale_inv_l r v) j). unfold B.
    rewrite (Qmult_comm (pow2 (nth j (dbind r c bind) 0%Z))), <- Qmult_assoc, pow2_opp_r. ring.
  Qed.
End ColumnRep.

(* row representation: getBasisInd lists the codes of the ids that are not in the row basis *)

Definition compl (m n : nat) (ids : list bid) : list bid :=
  map BRow (filter (fun i => negb (is_row_basic ids i)) (seq 0 m)) ++
  map BCol (filter (fun j => negb (is_col_basic ids j)) (seq 0 n)).

(* the column of the user's basis matrix named by an id *)
Definition ucol (p : lpmat) (id : bid) : vec :=
  match id with BRow i => unit_vec (lm_rows p) i | BCol j => nth j (lm_cols p) [] end.

Lemma bind_rowrep_compl m n ids : bind_rowrep m n ids = map bid_code (compl m n ids).
Proof. unfold bind_rowrep, compl. rewrite map_app, !map_map. reflexivity. Qed.

Lemma code_row i : Z.to_nat (-1 - bid_code (BRow i)) = i.
Proof. cbn [bid_code]. lia. Qed.

Lemma code_col j : Z.to_nat (bid_code (BCol j)) = j.
Proof. apply Nat2Z.id. Qed.

Lemma code_neg id : (bid_code id <? 0)%Z = match id with BRow _ => true | BCol _ => false end.
Proof. destruct id; cbn [bid_code]; [apply Z.ltb_lt | apply Z.ltb_ge]; lia. Qed.

(* the case distinctions of the code on a basis index, read on the id *)
Lemma map_code (A : Type) (F G : nat -> A) l :
  map (fun b => if (b <? 0)%Z then F (Z.to_nat (-1 - b)) else G (Z.to_nat b)) (map bid_code l)
  = map (fun id => match id with BRow i => F i | BCol j => G j end) l.
Proof.
  rewrite map_map. apply map_ext. intros id. rewrite code_neg.
  destruct id; [rewrite code_row | rewrite code_col]; reflexivity.
Qed.

Lemma basis_col_code p id : basis_col p (bid_code id) = ucol p id.
Proof.
  unfold basis_col. rewrite Z.leb_antisym, code_neg.
  destruct id; cbn [negb ucol]; [rewrite code_row | rewrite code_col]; reflexivity.
Qed.

Lemma bind_exp_code r c id :
  bind_exp r c (bid_code id) = match id with BRow i => (- nth i r 0)%Z | BCol j => nth j c 0%Z end.
Proof.
  unfold bind_exp. rewrite Z.leb_antisym, code_neg.
  destruct id; cbn [negb]; [rewrite code_row | rewrite code_col]; reflexivity.
Qed.

Lemma basis_matrix_compl p m n ids : basis_matrix p (bind_rowrep m n ids) = map (ucol p) (compl m n ids).
Proof. unfold basis_matrix. rewrite bind_rowrep_compl, map_map. apply map_ext, basis_col_code. Qed.

Lemma In_compl m n ids id : In id (compl m n ids) ->
  match id with
  | BRow i => (i < m)%nat /\ is_row_basic ids i = false
  | BCol j => (j < n)%nat /\ is_col_basic ids j = false
  end.
Proof.
  unfold compl. rewrite in_app_iff, !in_map_iff.
  intros [(t & <- & H)|(t & <- & H)]; apply filter_In in H as [H1 H2]; apply in_seq in H1;
    apply negb_true_iff in H2; (split; [lia | exact H2]).
Qed.

Lemma NoDup_compl m n ids : NoDup (compl m n ids).
Proof.
  apply NoDup_app_iff. repeat split.
  - apply Injective_map_NoDup; [intros x y [= E]; exact E | apply NoDup_filter, seq_NoDup].
  - apply Injective_map_NoDup; [intros x y [= E]; exact E | apply NoDup_filter, seq_NoDup].
  - intros x H1 H2. apply in_map_iff in H1 as (t1 & <- & _). apply in_map_iff in H2 as (t2 & E & _). discriminate E.
Qed.

Lemma bind_rowrep_ok m n ids b :
  In b (bind_rowrep m n ids) ->
  ((b < 0)%Z /\ (Z.to_nat (-1 - b) < m)%nat) \/ ((0 <= b)%Z /\ (Z.to_nat b < n)%nat).
Proof.
  rewrite bind_rowrep_compl, in_map_iff. intros (id & <- & H). apply In_compl in H.
  destruct id; destruct H as [H _]; [left; rewrite code_row | right; rewrite code_col]; cbn [bid_code]; split;
    [lia | exact H | lia | exact H].
Qed.

Lemma lm_ncols_scale r c p : lm_ncols (scale r c p) = lm_ncols p.
Proof. unfold lm_ncols. simpl. apply scale_cols_length. Qed.

Lemma col_unscale_scale r cj col :
  Forall2 Qeq (dscale (zneg r) (vscale (pow2 (- cj)) (scale_col r cj col))) col.
Proof.
  apply F2_of_vnth.
  - unfold vscale. rewrite dscale_length, map_length. apply scale_col_length.
  - intros i. rewrite vnth_dscale, vnth_vscale, vnth_scale_col, nth_zneg.
    transitivity (vnth col i * (pow2 (nth i r 0%Z) * pow2 (- nth i r 0%Z)) * (pow2 cj * pow2 (- cj)));
      [ring | rewrite !pow2_opp_r; ring].
Qed.

Lemma lp_col_unscaled_scale r c p j : Forall2 Qeq (lp_col_unscaled r c (scale r c p) j) (nth j (lm_cols p) []).
Proof. unfold lp_col_unscaled. cbn [lm_cols scale]. rewrite nth_scale_cols. apply col_unscale_scale. Qed.

(* ps is the stored LP, p the user's; the last hypothesis says that a column as the code reads it from ps is the
   user's column *)
Lemma multT_rowrep_gen (sc : bool) r c ps p ids x :
  lm_rows ps = lm_rows p -> lm_ncols ps = lm_ncols p ->
  (forall j, Forall2 Qeq (if sc then lp_col_unscaled r c ps j else nth j (lm_cols ps) []) (nth j (lm_cols p) [])) ->
  veq (multT_rowrep sc r c ps ids x) (vmul x (basis_matrix p (bind_rowrep (lm_rows p) (lm_ncols p) ids))).
Proof.
  intros Em En Hc i. unfold multT_rowrep, vmul. rewrite Em, En, basis_matrix_compl, bind_rowrep_compl.
  rewrite (map_code _ (vnth x) (fun j => if sc then dot x (lp_col_unscaled r c ps j) else dot x (nth j (lm_cols ps) []))).
  rewrite map_map. apply vnth_F2, Forall2_map_ext_in. intros id H. apply In_compl in H.
  destruct id as [i'|j]; destruct H as [H _]; cbn [ucol].
  - symmetry. apply dot_unit, H.
  - specialize (Hc j). destruct sc; apply dot_F2_r, Hc.
Qed.

Lemma multT_rowrep_plain r c ps ids x :
  veq (multT_rowrep false r c ps ids x) (vmul x (basis_matrix ps (bind_rowrep (lm_rows ps) (lm_ncols ps) ids))).
Proof. apply multT_rowrep_gen; try reflexivity. intros j. apply F2_refl. Qed.

Lemma multT_rowrep_unscale r c p ids x :
  veq (multT_rowrep true r c (scale r c p) ids x)
      (vmul x (basis_matrix p (bind_rowrep (lm_rows p) (lm_ncols p) ids))).
Proof. apply multT_rowrep_gen; [reflexivity | apply lm_ncols_scale | apply lp_col_unscaled_scale]. Qed.

Lemma mult_rowrep_fixed_plain r c ps ids x :
  veq (mult_rowrep_fixed false r c ps ids x) (mulv (basis_matrix ps (bind_rowrep (lm_rows ps) (lm_ncols ps) ids)) x).
Proof. intros i. reflexivity. Qed.

Lemma mult_rowrep_fixed_unscale r c p ids x :
  veq (mult_rowrep_fixed true r c (scale r c p) ids x) (mulv (basis_matrix p (bind_rowrep (lm_rows p) (lm_ncols p) ids)) x).
Proof.
  intros i. unfold mult_rowrep_fixed. rewrite lm_ncols_scale. cbn [lm_rows scale].
  apply mulv_ext, Forall2_map_ext_in. intros b _. unfold basis_col.
  destruct (0 <=? b)%Z; [apply lp_col_unscaled_scale | apply F2_refl].
Qed.

(* row representation, solve side (getBasisInverseRowReal).  M = rb_matrix ps ids is the row basis: its columns are the
   LP rows and the unit vectors named by ids.  The user's basis matrix B has the columns named by the ids that are NOT in
   the row basis ([compl]).  From M y = rhs the code scatters y into a vector w with w^T B = e_k^T. *)

(* the row basis names each row / column at most once, and only existing ones *)
Definition ids_ok (p : lpmat) (ids : list bid) : Prop :=
  NoDup ids /\
  forall id, In id ids -> match id with BRow i => (i < lm_rows p)%nat | BCol j => (j < lm_ncols p)%nat end.

Lemma vnth_lp_row p i j : vnth (lp_row p i) j == vnth (nth j (lm_cols p) []) i.
Proof.
  unfold lp_row. generalize (lm_cols p) as cols. intros cols. revert j.
  induction cols as [|col cols IH]; intros j; simpl.
  - destruct j; rewrite ?vnth_nil; reflexivity.
  - destruct j; simpl; [reflexivity | apply IH].
Qed.

Lemma is_row_basic_In ids i : is_row_basic ids i = true <-> In (BRow i) ids.
Proof.
  induction ids as [|[i'|j] ids IH]; simpl.
  - split; [discriminate | tauto].
  - rewrite orb_true_iff, IH, Nat.eqb_eq. split.
    + intros [H|H]; [left; congruence | right; exact H].
    + intros [H|H]; [left; congruence | right; exact H].
  - rewrite IH. split; [auto | intros [H|H]; [discriminate | exact H]].
Qed.

Lemma vset_length i a v : length (vset i a v) = length v.
Proof. revert i. induction v as [|b v IH]; intros [|i]; simpl; auto. Qed.

Lemma vnth_vset_other i a v k : k <> i -> vnth (vset i a v) k = vnth v k.
Proof.
  revert i k. induction v as [|b v IH]; intros i k H.
  - destruct i; reflexivity.
  - destruct i as [|i]; destruct k as [|k]; simpl; try reflexivity; try lia. apply IH. lia.
Qed.

Lemma vnth_vset_same i a v : (i < length v)%nat -> vnth (vset i a v) i = a.
Proof.
  revert i. induction v as [|b v IH]; intros i H; simpl in *; [lia|].
  destruct i; simpl; [reflexivity | apply IH; lia].
Qed.

Lemma dot_vset i a acc col :
  (i < length acc)%nat -> dot (vset i a acc) col == dot acc col + (a - vnth acc i) * vnth col i.
Proof.
  revert i col. induction acc as [|b acc IH]; intros i col H; simpl in *; [lia|].
  destruct i as [|i]; destruct col as [|c col]; simpl; try ring.
  rewrite IH by lia. ring.
Qed.

(* the scatter loop, plain branch *)
Lemma scatter_not_basic r ids y acc i :
  is_row_basic ids i = false -> vnth (scatter_rows false r ids y acc) i == vnth acc i.
Proof.
  revert y acc. induction ids as [|[i'|j] ids IH]; intros y acc H; simpl in *.
  - reflexivity.
  - apply orb_false_iff in H as [H1 H2]. rewrite IH by exact H2.
    apply Nat.eqb_neq in H1. rewrite vnth_vset_other by (intro; apply H1; auto). reflexivity.
  - apply IH. exact H.
Qed.

Lemma scatter_length sc r ids y acc : length (scatter_rows sc r ids y acc) = length acc.
Proof.
  revert y acc. induction ids as [|[i|j] ids IH]; intros y acc; simpl; auto.
  rewrite IH. apply vset_length.
Qed.

(* against a column j that is not in the row basis, the scatter loop adds (M y)_j: the row vectors of the row basis
   contribute y_t a_ij, its unit vectors nothing *)
Lemma scatter_dot r p ids y acc j :
  NoDup ids -> is_col_basic ids j = false ->
  (forall i, In (BRow i) ids -> (i < length acc)%nat /\ vnth acc i == 0) ->
  dot (scatter_rows false r ids y acc) (nth j (lm_cols p) []) ==
  dot acc (nth j (lm_cols p) []) + vnth (mulv (rb_matrix p ids) y) j.
Proof.
  revert y acc. induction ids as [|[i|j'] ids IH]; intros y acc ND Hc H; cbn [scatter_rows rb_matrix map].
  - rewrite vnth_nil. ring.
  - inversion ND as [|x l Hnin ND']; subst. destruct (H i (or_introl eq_refl)) as [Hi Hz].
    rewrite vnth_mulv_cons, IH.
    + rewrite dot_vset by exact Hi. cbn [rb_vec]. rewrite Hz, vnth_lp_row. fold (rb_matrix p ids). ring.
    + exact ND'.
    + exact Hc.
    + intros i' Hi'. rewrite vset_length.
      destruct (H i' (or_intror Hi')) as [A Bz]. split; [exact A|].
      rewrite vnth_vset_other; [exact Bz|]. intro E. subst i'. apply Hnin. exact Hi'.
  - inversion ND as [|x l Hnin ND']; subst. simpl in Hc. apply orb_false_iff in Hc as [Hj Hc].
    apply Nat.eqb_neq in Hj. rewrite vnth_mulv_cons, IH; [| exact ND' | exact Hc | intros i Hi; apply H; right; exact Hi].
    cbn [rb_vec]. rewrite vnth_unit_other by (intro E; apply Hj; symmetry; exact E). fold (rb_matrix p ids). ring.
Qed.

Definition bid_eq_dec (a b : bid) : {a = b} + {a <> b}.
Proof. decide equality; apply Nat.eq_dec. Defined.

(* the result vector of the ROW-representation branch of getBasisInverseRowReal as a function of the solve result y
   and of the id [idk] whose inverse row is asked for, with the unit entry generalised to lam (lam = 1 in the plain
   branch, 2^-r_i0 before the final row scaling in the scaled branch) *)
Definition rowrep_row_coef (r : list Z) (ps : lpmat) (ids : list bid) (idk : bid) (lam : Q) (y : vec) : vec :=
  let z := scatter_rows false r ids y (vzero (lm_rows ps)) in
  match idk with BRow i0 => vset i0 lam z | BCol _ => z end.

(* the right-hand side the code passes to the solve for idk: minus lam times LP row i0, or lam times the unit vector j0 *)
Definition rowrep_row_rhs_ok (ps : lpmat) (idk : bid) (lam : Q) (rhs : vec) : Prop :=
  forall j, (j < lm_ncols ps)%nat ->
    vnth rhs j == match idk with
                  | BRow i0 => - lam * vnth (nth j (lm_cols ps) []) i0
                  | BCol j0 => lam * (if Nat.eqb j j0 then 1 else 0)
                  end.

Section RowRepInverseRowCore.
  Variables (ps : lpmat) (ids : list bid) (r : list Z).
  Let m := lm_rows ps.
  Let n := lm_ncols ps.
  Let l := compl m n ids.
  Hypothesis Hids : ids_ok ps ids.

  (* for every column j that is not in the row basis: <scatter(y), column j> = (M y)_j *)
  Lemma scatter_col y j :
    is_col_basic ids j = false ->
    dot (scatter_rows false r ids y (vzero m)) (nth j (lm_cols ps) []) == vnth (mulv (rb_matrix ps ids) y) j.
  Proof.
    intros Hc. rewrite (scatter_dot r ps ids y _ j (proj1 Hids) Hc).
    - rewrite dot_comm, dot_vzero. ring.
    - intros i Hi. rewrite vzero_length. split; [exact (proj2 Hids _ Hi) | apply vnth_vzero].
  Qed.

  Variables (lam : Q) (y rhs : vec).
  Hypothesis Hy : forall j, (j < n)%nat -> vnth (mulv (rb_matrix ps ids) y) j == vnth rhs j.

  (* the coefficient vector against the column of the user's basis named by idt *)
  Lemma row_coef_dot_column idk idt :
    In idk l -> In idt l -> rowrep_row_rhs_ok ps idk lam rhs ->
    dot (rowrep_row_coef r ps ids idk lam y) (ucol ps idt) == if bid_eq_dec idt idk then lam else 0.
  Proof.
    intros Hk Ht Hrhs. apply In_compl in Hk, Ht. unfold rowrep_row_coef. fold m.
    destruct idk as [i0|j0], idt as [i|j]; destruct Hk as [K2 K3], Ht as [T2 T3]; cbn [ucol]; fold m.
    - rewrite dot_unit by exact T2. destruct (bid_eq_dec (BRow i) (BRow i0)) as [[= ->]|N].
      + rewrite vnth_vset_same by (rewrite scatter_length, vzero_length; exact K2). reflexivity.
      + rewrite vnth_vset_other by congruence. rewrite scatter_not_basic by exact T3. apply vnth_vzero.
    - destruct (bid_eq_dec _ _) as [E|_]; [discriminate E|].
      rewrite dot_vset by (rewrite scatter_length, vzero_length; exact K2).
      rewrite scatter_not_basic by exact K3. rewrite vnth_vzero, scatter_col by assumption.
      rewrite (Hy _ T2), (Hrhs _ T2). ring.
    - destruct (bid_eq_dec _ _) as [E|_]; [discriminate E|].
      rewrite dot_unit by exact T2. rewrite scatter_not_basic by exact T3. apply vnth_vzero.
    - rewrite scatter_col by assumption. rewrite (Hy _ T2), (Hrhs _ T2).
      destruct (bid_eq_dec (BCol j) (BCol j0)) as [[= ->]|N].
      + rewrite Nat.eqb_refl. ring.
      + replace (Nat.eqb j j0) with false by (symmetry; apply Nat.eqb_neq; congruence). ring.
  Qed.

  Lemma row_coef_vmul_basis k :
    (k < length l)%nat -> rowrep_row_rhs_ok ps (nth k l (BCol 0)) lam rhs ->
    forall t, vnth (vmul (rowrep_row_coef r ps ids (nth k l (BCol 0)) lam y) (map (ucol ps) l)) t
              == lam * vnth (unit_vec (length l) k) t.
  Proof.
    intros Hk Hrhs t. rewrite vnth_vmul.
    destruct (Nat.lt_ge_cases t (length l)) as [Ht|Ht].
    2:{ rewrite (nth_overflow (map (ucol ps) l)) by (rewrite map_length; exact Ht). rewrite dot_nil_r, vnth_unit_other by lia. ring. }
    rewrite (nth_map_lt _ _ _ _ (BCol 0) Ht), (vnth_unit_eq _ _ t Hk).
    rewrite row_coef_dot_column by (try apply nth_In; assumption).
    destruct (bid_eq_dec _ _) as [E|N], (Nat.eqb_spec t k) as [E'|N']; try ring.
    - exfalso. apply N', (proj1 (NoDup_nth l (BCol 0)) (NoDup_compl m n ids)); assumption.
    - exfalso. apply N. rewrite E'. reflexivity.
  Qed.
End RowRepInverseRowCore.

Lemma lp_row_length p i : length (lp_row p i) = lm_ncols p.
Proof. unfold lp_row, lm_ncols. apply map_length. Qed.

Lemma binv_row_rowrep_plain ps ids r c solve k :
  ids_ok ps ids ->
  (forall b, length b = lm_ncols ps -> veq (mulv (rb_matrix ps ids) (solve b)) b) ->
  let bind := bind_rowrep (lm_rows ps) (lm_ncols ps) ids in
  (k < length bind)%nat ->
  veq (vmul (binv_row_rowrep solve false r c ps ids k) (basis_matrix ps bind)) (unit_vec (length bind) k).
Proof.
  intros Hids Hs bind Hk t. unfold binv_row_rowrep. fold bind. unfold bind in *. clear bind.
  rewrite basis_matrix_compl, bind_rowrep_compl, map_length in *.
  set (l := compl (lm_rows ps) (lm_ncols ps) ids) in *.
  rewrite (nth_map_lt _ _ _ _ (BCol 0) Hk), code_neg.
  pose proof (In_compl _ _ _ _ (nth_In l (BCol 0) Hk)) as Hin.
  pose proof (fun y rhs Hy => row_coef_vmul_basis ps ids r Hids 1 y rhs Hy k Hk) as G. fold l in G.
  transitivity (1 * vnth (unit_vec (length l) k) t); [|ring].
  destruct (nth k l (BCol 0)) as [i0|j0].
  - rewrite code_row. apply (G _ (vscale (-1) (lp_row ps i0))).
    + intros j Hj. apply Hs. unfold vscale. rewrite map_length. apply lp_row_length.
    + intros j Hj. rewrite vnth_vscale, vnth_lp_row. ring.
  - rewrite code_col. apply (G _ (unit_vec (lm_ncols ps) j0)).
    + intros j Hj. apply Hs, unit_vec_length.
    + intros j Hj. rewrite (vnth_unit_eq _ _ j (proj1 Hin)). ring.
Qed.

(* scaled branch: the loop multiplies every scattered entry by 2^r_i *)
Lemma vset_dscale r i a a' acc acc' :
  a' == a * pow2 (nth i r 0%Z) -> Forall2 Qeq acc (dscale r acc') ->
  Forall2 Qeq (vset i a' acc) (dscale r (vset i a acc')).
Proof.
  intros Ha. revert r i acc Ha. induction acc' as [|b acc' IH]; intros r i acc Ha H.
  - simpl in H. inversion H; subst. destruct i; constructor.
  - simpl in H. inversion H as [|x y l l' Hxy Hl]; subst. destruct i as [|i]; simpl.
    + constructor; [rewrite Ha, hd_nth_0; reflexivity | exact Hl].
    + constructor; [exact Hxy|]. apply IH; [rewrite nth_tl; exact Ha | exact Hl].
Qed.

Lemma scatter_true_dscale r ids y acc acc' :
  Forall2 Qeq acc (dscale r acc') ->
  Forall2 Qeq (scatter_rows true r ids y acc) (dscale r (scatter_rows false r ids y acc')).
Proof.
  revert y acc acc'. induction ids as [|[i|j] ids IH]; intros y acc acc' H; simpl.
  - exact H.
  - apply IH. apply vset_dscale; [reflexivity | exact H].
  - apply IH. exact H.
Qed.

Lemma vzero_dscale r n : Forall2 Qeq (vzero n) (dscale r (vzero n)).
Proof.
  revert r. induction n as [|n IH]; intros r; simpl; constructor; [ring | apply IH].
Qed.

Lemma ids_ok_scale r c p ids : ids_ok p ids -> ids_ok (scale r c p) ids.
Proof.
  intros [N R]. split; [exact N|]. intros id Hid. specialize (R id Hid). destruct id; [exact R|].
  rewrite lm_ncols_scale. exact R.
Qed.

Lemma binv_row_rowrep_unscale p ids r c solve k :
  ids_ok p ids ->
  (forall b, length b = lm_ncols p -> veq (mulv (rb_matrix (scale r c p) ids) (solve b)) b) ->
  let bind := bind_rowrep (lm_rows p) (lm_ncols p) ids in
  (k < length bind)%nat ->
  veq (vmul (binv_row_rowrep solve true r c (scale r c p) ids k) (basis_matrix p bind)) (unit_vec (length bind) k).
Proof.
  intros Hids Hs bind Hk t.
  apply (scaled_unit_cancel (fun s => nth s (dbind r c bind) 0%Z)).
  rewrite (nth_dbind r c bind k Hk).
  unfold binv_row_rowrep. rewrite lm_ncols_scale. cbn [lm_rows scale]. fold bind.
  assert (Eb : bind = map bid_code (compl (lm_rows p) (lm_ncols p) ids)) by apply bind_rowrep_compl.
  set (l := compl (lm_rows p) (lm_ncols p) ids) in *. rewrite Eb, map_length in Hk.
  pose proof (In_compl _ _ _ _ (nth_In l (BCol 0) Hk)) as Hin.
  replace (nth k bind 0%Z) with (bid_code (nth k l (BCol 0))) by (rewrite Eb; symmetry; apply nth_map_lt, Hk).
  rewrite code_neg, bind_exp_code.
  (* the core lemma for the stored LP, transferred to the user's matrix *)
  assert (G : forall lam rhs w, length rhs = lm_ncols p ->
             rowrep_row_rhs_ok (scale r c p) (nth k l (BCol 0)) lam rhs ->
             Forall2 Qeq w (dscale r (rowrep_row_coef r (scale r c p) ids (nth k l (BCol 0)) lam (solve rhs))) ->
             pow2 (nth t (dbind r c bind) 0%Z) * vnth (vmul w (basis_matrix p bind)) t
             == lam * vnth (unit_vec (length bind) k) t).
  { intros lam rhs w Hl Hr Hw. rewrite (vmul_x_ext _ _ _ Hw t), <- vmul_scaled_basis.
    unfold bind. rewrite basis_matrix_compl, bind_rowrep_compl, map_length. fold l.
    pose proof (row_coef_vmul_basis (scale r c p) ids r (ids_ok_scale r c p ids Hids) lam (solve rhs) rhs) as C.
    rewrite lm_ncols_scale in C. apply C; try assumption. intros j _. apply Hs, Hl. }
  destruct (nth k l (BCol 0)) as [i0|j0].
  - rewrite code_row. apply (G _ (vscale (pow2 (- nth i0 r 0%Z)) (vscale (-1) (lp_row (scale r c p) i0)))).
    + unfold vscale. rewrite !map_length, lp_row_length. apply lm_ncols_scale.
    + intros j Hj. rewrite !vnth_vscale, vnth_lp_row. ring.
    + apply vset_dscale; [symmetry; apply pow2_opp_l | apply scatter_true_dscale, vzero_dscale].
  - rewrite code_col. apply (G _ (vscale (pow2 (nth j0 c 0%Z)) (unit_vec (lm_ncols p) j0))).
    + unfold vscale. rewrite map_length. apply unit_vec_length.
    + intros j Hj. rewrite vnth_vscale, (vnth_unit_eq _ _ j (proj1 Hin)). reflexivity.
    + apply scatter_true_dscale, vzero_dscale.
Qed.

(* row representation, coSolve side (getBasisInverseColReal, getBasisInverseTimesVecReal): from x^T M = rhs^T the code
   assembles a coefficient vector coef with B coef = e_k, resp. = v *)

(* f s + f (s+1) + ... + f (s+n-1) *)
Fixpoint sum_from (s n : nat) (f : nat -> Q) : Q :=
  match n with
  | O => 0
  | S n' => f s + sum_from (S s) n' f
  end.

Lemma sum_from_ext s n f g : (forall j, (s <= j < s + n)%nat -> f j == g j) -> sum_from s n f == sum_from s n g.
Proof.
  revert s. induction n as [|n IH]; intros s H; simpl; [reflexivity|].
  rewrite (H s) by lia. rewrite IH; [reflexivity|]. intros j Hj. apply H. lia.
Qed.

Lemma sum_from_shift s n f : sum_from (S s) n f == sum_from s n (fun j => f (S j)).
Proof. revert s. induction n as [|n IH]; intros s; simpl; [reflexivity | rewrite IH; reflexivity]. Qed.

Lemma sum_from_zero s n f : (forall j, (s <= j < s + n)%nat -> f j == 0) -> sum_from s n f == 0.
Proof.
  revert s. induction n as [|n IH]; intros s H; simpl; [reflexivity|].
  rewrite (H s) by lia. rewrite IH; [ring|]. intros j Hj. apply H. lia.
Qed.

Lemma sum_from_single n f i :
  (forall j, j <> i -> (j < n)%nat -> f j == 0) -> sum_from 0 n f == (if Nat.ltb i n then f i else 0).
Proof.
  revert f i. induction n as [|n IH]; intros f i H; [reflexivity|]. simpl sum_from. rewrite sum_from_shift.
  destruct i as [|i].
  - rewrite sum_from_zero; [simpl; ring|]. intros j Hj. apply H; lia.
  - rewrite (H 0%nat), (IH (fun j => f (S j)) i) by (try lia; intros j Hj Hn; apply H; lia).
    change (Nat.ltb (S i) (S n)) with (Nat.ltb i n). ring.
Qed.

Lemma dot_as_sum u v : dot u v == sum_from 0 (length v) (fun j => vnth u j * vnth v j).
Proof.
  revert u. induction v as [|b v IH]; intros u; simpl.
  - rewrite dot_nil_r. reflexivity.
  - destruct u as [|a u]; simpl.
    + rewrite sum_from_zero; [ring|]. intros j _. rewrite ?vnth_nil. ring.
    + rewrite sum_from_shift. simpl. rewrite <- IH. reflexivity.
Qed.

(* B x for columns and entries given by the same index list *)
Lemma mulv_map_filter (P : nat -> bool) (g : nat -> vec) (f : nat -> Q) s n i :
  vnth (mulv (map g (filter P (seq s n))) (map f (filter P (seq s n)))) i ==
  sum_from s n (fun j => if P j then f j * vnth (g j) i else 0).
Proof.
  unfold mulv. revert s. induction n as [|n IH]; intros s; simpl.
  - reflexivity.
  - destruct (P s); simpl.
    + rewrite vnth_vadd, vnth_vscale, IH. reflexivity.
    + rewrite IH. ring.
Qed.

Lemma mulv_app A1 A2 x1 x2 i :
  length A1 = length x1 -> vnth (mulv (A1 ++ A2) (x1 ++ x2)) i == vnth (mulv A1 x1) i + vnth (mulv A2 x2) i.
Proof.
  unfold mulv. revert x1. induction A1 as [|a A1 IH]; intros x1 H; destruct x1 as [|t x1]; simpl in *; try discriminate.
  - ring.
  - rewrite !vnth_vadd, IH by lia. ring.
Qed.

Lemma is_col_basic_In ids j : is_col_basic ids j = true <-> In (BCol j) ids.
Proof.
  induction ids as [|[i|j'] ids IH]; simpl.
  - split; [discriminate | tauto].
  - rewrite IH. split; [auto | intros [H|H]; [discriminate | exact H]].
  - rewrite orb_true_iff, IH, Nat.eqb_eq. split.
    + intros [H|H]; [left; congruence | right; exact H].
    + intros [H|H]; [left; congruence | right; exact H].
Qed.

Lemma row_pos_spec ids k d : In (BRow k) ids -> (row_pos ids k < length ids)%nat /\ nth (row_pos ids k) ids d = BRow k.
Proof.
  induction ids as [|[i|j] ids IH]; simpl; intros H; [tauto | |].
  - destruct (Nat.eqb i k) eqn:E.
    + apply Nat.eqb_eq in E. subst. split; [lia | reflexivity].
    + destruct H as [H|H]; [apply Nat.eqb_neq in E; congruence|]. destruct (IH H) as [A B]. split; [lia | exact B].
  - destruct H as [H|H]; [discriminate|]. destruct (IH H) as [A B]. split; [lia | exact B].
Qed.

Lemma wf_lp_col_short p j i : wf_lp p = true -> (lm_rows p <= i)%nat -> vnth (nth j (lm_cols p) []) i == 0.
Proof.
  unfold wf_lp. intros H Hi. rewrite forallb_forall in H.
  destruct (nth_in_or_default j (lm_cols p) []) as [Hin|E]; [|rewrite E, vnth_nil; reflexivity].
  apply H, Nat.eqb_eq in Hin. rewrite vnth_beyond by (rewrite Hin; exact Hi). reflexivity.
Qed.

(* the result vector of the coSolve-based ROW-representation branches as a function of the solve result x:
   entry for a basic slack i: w_i - <row i, x>;  for a basic column j: x_j *)
Definition rowrep_col_coef (ps : lpmat) (l : list bid) (w x : vec) : vec :=
  map (fun id => match id with BRow i => vnth w i - dot (lp_row ps i) x | BCol j => vnth x j end) l.

Section RowRepCoSolveCore.
  Variables (ps : lpmat) (ids : list bid).
  Let m := lm_rows ps.
  Let n := lm_ncols ps.
  Let l := compl m n ids.
  Let B := map (ucol ps) l.
  Hypothesis Hids : ids_ok ps ids.
  Hypothesis Hwf : wf_lp ps = true.
  Variables (x rhs w : vec).
  (* x^T M = rhs^T, position by position; the right-hand side vanishes at the positions of the column bounds *)
  Hypothesis Hx : forall t, (t < length ids)%nat -> dot x (rb_vec ps (nth t ids (BCol 0))) == vnth rhs t.
  Hypothesis Hrhs_col : forall t j, (t < length ids)%nat -> nth t ids (BCol 0) = BCol j -> vnth rhs t == 0.

  Lemma x_zero_col_basic j : is_col_basic ids j = true -> vnth x j == 0.
  Proof.
    intros H. apply is_col_basic_In in H. pose proof (proj2 Hids _ H) as Hj. simpl in Hj.
    destruct (In_nth _ _ (BCol 0) H) as (t & Ht & Et).
    pose proof (Hx t Ht) as E. rewrite Et in E. simpl in E. rewrite dot_unit in E by exact Hj.
    rewrite E. apply (Hrhs_col t j Ht Et).
  Qed.

  Lemma col_coef_mulv_entry i :
    vnth (mulv B (rowrep_col_coef ps l w x)) i ==
    dot x (lp_row ps i) +
    (if (Nat.ltb i m && negb (is_row_basic ids i))%bool then vnth w i - dot (lp_row ps i) x else 0).
  Proof.
    unfold B, rowrep_col_coef, l, compl. rewrite !map_app, !map_map. cbn [ucol].
    rewrite mulv_app by (rewrite !map_length; reflexivity).
    fold m. rewrite (mulv_map_filter _ (unit_vec m)), (mulv_map_filter _ (fun j => nth j (lm_cols ps) [])).
    rewrite (sum_from_single m _ i).
    2:{ intros j Hj _. destruct (negb (is_row_basic ids j)); [|reflexivity]. rewrite vnth_unit_other by (intro; apply Hj; auto). ring. }
    rewrite (sum_from_ext 0 n _ (fun j => vnth x j * vnth (lp_row ps i) j)).
    2:{ intros j _. rewrite vnth_lp_row. destruct (is_col_basic ids j) eqn:E; simpl; [|reflexivity].
        rewrite (x_zero_col_basic j E). ring. }
    unfold n. rewrite <- (lp_row_length ps i), <- dot_as_sum.
    rewrite Qplus_comm. apply Qplus_comp; [reflexivity|].
    destruct (Nat.ltb_spec i m) as [Lt|_]; simpl; [|reflexivity].
    destruct (is_row_basic ids i); simpl; [reflexivity|]. rewrite (vnth_unit_same _ _ Lt). ring.
  Qed.

  (* (B coef)_i is the right-hand side entry for a row of the row basis, w_i for the other rows, 0 beyond the end *)
  Lemma col_coef_mulv_basis u :
    (forall t i, (t < length ids)%nat -> nth t ids (BCol 0) = BRow i -> vnth u i == vnth rhs t) ->
    (forall i, (i < m)%nat -> is_row_basic ids i = false -> vnth u i == vnth w i) ->
    (forall i, (m <= i)%nat -> vnth u i == 0) ->
    veq (mulv B (rowrep_col_coef ps l w x)) u.
  Proof.
    intros H1 H2 H3 i. rewrite col_coef_mulv_entry.
    destruct (Nat.ltb_spec i m) as [Hi|Hi]; cbn [andb].
    - destruct (is_row_basic ids i) eqn:E; cbn [negb].
      + apply is_row_basic_In in E. destruct (In_nth _ _ (BCol 0) E) as (t & Ht & Et).
        rewrite (H1 t i Ht Et). pose proof (Hx t Ht) as X. rewrite Et in X. cbn [rb_vec] in X. rewrite X. ring.
      + rewrite (H2 i Hi E), (dot_comm x). ring.
    - rewrite (H3 i Hi), dot_as_sum, sum_from_zero; [ring|].
      intros j _. rewrite vnth_lp_row, (wf_lp_col_short ps j i Hwf Hi). ring.
  Qed.
End RowRepCoSolveCore.

Lemma vmul_rb_rows ps ids x t :
  (t < length ids)%nat -> dot x (rb_vec ps (nth t ids (BCol 0))) == vnth (vmul x (rb_matrix ps ids)) t.
Proof. intros Ht. rewrite vnth_vmul. unfold rb_matrix. rewrite (nth_map_lt _ _ _ _ (BCol 0) Ht). reflexivity. Qed.

Section RowRepAnswers.
  Variables (ps : lpmat) (ids : list bid).
  Let l := compl (lm_rows ps) (lm_ncols ps) ids.
  Let B := map (ucol ps) l.
  Hypothesis Hids : ids_ok ps ids.
  Hypothesis Hwf : wf_lp ps = true.

  (* assembled answers from a vector x that satisfies the row system position by position *)
  Lemma rowrep_col_from_x x k :
    length ids = lm_ncols ps -> (k < lm_rows ps)%nat -> In (BRow k) ids ->
    (forall t, (t < length ids)%nat ->
       dot x (rb_vec ps (nth t ids (BCol 0))) == vnth (unit_vec (lm_ncols ps) (row_pos ids k)) t) ->
    veq (mulv B (rowrep_col_coef ps l [] x)) (unit_vec (lm_rows ps) k).
  Proof.
    intros Hlen Hk Ek Hx. destruct (row_pos_spec ids k (BCol 0) Ek) as [Hpos Epos].
    set (index := row_pos ids k) in *. apply (col_coef_mulv_basis ps ids Hids Hwf x _ [] Hx).
    - intros t j Ht Et. apply vnth_unit_other. intro E. subst t. rewrite Epos in Et. discriminate.
    - intros t i Ht Et. destruct (Nat.eq_dec t index) as [->|Hne].
      + rewrite Epos in Et. injection Et as <-.
        rewrite !vnth_unit_same; [reflexivity | rewrite <- Hlen; exact Hpos | exact Hk].
      + rewrite (vnth_unit_other _ _ t) by exact Hne. apply vnth_unit_other. intro E. subst i.
        apply Hne, (proj1 (NoDup_nth ids (BCol 0)) (proj1 Hids)); [exact Ht | exact Hpos | congruence].
    - intros i Hi Hn. rewrite vnth_nil. apply vnth_unit_other. intro E. subst i.
      apply is_row_basic_In in Ek. congruence.
    - intros i Hi. apply vnth_unit_other. lia.
  Qed.

  Lemma rowrep_unit_case k :
    (k < lm_rows ps)%nat -> is_row_basic ids k = false ->
    veq (mulv (basis_matrix ps (bind_rowrep (lm_rows ps) (lm_ncols ps) ids))
              (map (fun b => if Z.eqb b (-1 - Z.of_nat k) then 1 else 0) (bind_rowrep (lm_rows ps) (lm_ncols ps) ids)))
        (unit_vec (lm_rows ps) k).
  Proof.
    intros Hk Ek i. rewrite basis_matrix_compl, bind_rowrep_compl, map_map. fold l B.
    rewrite (mulv_x_ext _ _ (rowrep_col_coef ps l (unit_vec (lm_rows ps) k) [])).
    2:{ apply Forall2_map_ext_in. intros [i'|j] _; cbn [bid_code].
        - rewrite dot_nil_r, (vnth_unit_eq _ _ i' Hk). destruct (Nat.eqb_spec i' k) as [->|N].
          + rewrite Z.eqb_refl. ring.
          + replace (_ =? _)%Z with false by (symmetry; apply Z.eqb_neq; lia). ring.
        - replace (_ =? _)%Z with false by (symmetry; apply Z.eqb_neq; lia). rewrite vnth_nil. reflexivity. }
    revert i. apply (col_coef_mulv_basis ps ids Hids Hwf [] [] _); try reflexivity.
    - intros t i _ Et. rewrite vnth_nil. apply vnth_unit_other. intro E. subst i.
      destruct (nth_in_or_default t ids (BCol 0)) as [Hin|D]; [|rewrite D in Et; discriminate].
      rewrite Et in Hin. apply is_row_basic_In in Hin. congruence.
    - intros i Hi. apply vnth_unit_other. lia.
  Qed.

  Lemma rowrep_solve_from_x y v :
    length v = lm_rows ps ->
    (forall t, (t < length ids)%nat ->
       dot y (rb_vec ps (nth t ids (BCol 0)))
       == vnth (map (fun id => match id with BRow i0 => vnth v i0 | BCol _ => 0 end) ids) t) ->
    veq (mulv B (rowrep_col_coef ps l v y)) v.
  Proof.
    intros Hv Hx. apply (col_coef_mulv_basis ps ids Hids Hwf y _ v Hx); try reflexivity.
    - intros t j Ht Et. rewrite (vnth_map _ _ _ t (BCol 0) Ht), Et. reflexivity.
    - intros t i Ht Et. rewrite (vnth_map _ _ _ t (BCol 0) Ht), Et. reflexivity.
    - intros i Hi. rewrite vnth_beyond by lia. reflexivity.
  Qed.
End RowRepAnswers.

Lemma binv_col_rowrep_plain ps ids r c coSolve k :
  ids_ok ps ids -> wf_lp ps = true -> length ids = lm_ncols ps ->
  (forall b, length b = lm_ncols ps -> veq (vmul (coSolve b) (rb_matrix ps ids)) b) ->
  (k < lm_rows ps)%nat ->
  veq (mulv (basis_matrix ps (bind_rowrep (lm_rows ps) (lm_ncols ps) ids)) (binv_col_rowrep coSolve false r c ps ids k))
      (unit_vec (lm_rows ps) k).
Proof.
  intros Hids Hwf Hlen Hs Hk. unfold binv_col_rowrep.
  destruct (is_row_basic ids k) eqn:Ek; cbn [negb]; [|apply (rowrep_unit_case ps ids Hids Hwf k Hk Ek)].
  apply is_row_basic_In in Ek. intros i. rewrite basis_matrix_compl, bind_rowrep_compl.
  set (x := coSolve (unit_vec (lm_ncols ps) (row_pos ids k))).
  rewrite (map_code _ (fun i0 => - dot (lp_row ps i0) x) (vnth x)).
  rewrite (mulv_x_ext _ _ (rowrep_col_coef ps (compl (lm_rows ps) (lm_ncols ps) ids) [] x)).
  2:{ apply Forall2_map_ext_in. intros [i'|j] _; [rewrite vnth_nil; ring | reflexivity]. }
  apply (rowrep_col_from_x ps ids Hids Hwf x k Hlen Hk Ek).
  intros t Ht. rewrite vmul_rb_rows by exact Ht. apply Hs, unit_vec_length.
Qed.

Lemma binv_times_vec_rowrep_plain ps ids r c coSolve v :
  ids_ok ps ids -> wf_lp ps = true -> length ids = lm_ncols ps ->
  (forall b, length b = lm_ncols ps -> veq (vmul (coSolve b) (rb_matrix ps ids)) b) ->
  length v = lm_rows ps ->
  veq (mulv (basis_matrix ps (bind_rowrep (lm_rows ps) (lm_ncols ps) ids)) (binv_times_vec_rowrep coSolve false r c ps ids v)) v.
Proof.
  intros Hids Hwf Hlen Hs Hv. unfold binv_times_vec_rowrep. cbv zeta. rewrite basis_matrix_compl, bind_rowrep_compl.
  set (y := coSolve _).
  rewrite (map_code _ (fun i => vnth v i - dot (lp_row ps i) y) (vnth y)).
  apply (rowrep_solve_from_x ps ids Hids Hwf y v Hv).
  intros t Ht. rewrite vmul_rb_rows by exact Ht. apply Hs. rewrite map_length. exact Hlen.
Qed.

(* the vectors of the row basis of the scaled LP: row i is 2^r_i (row i) D_c, the unit vector e_j is 2^-c_j e_j D_c *)
Definition rb_exp (r c : list Z) (id : bid) : Z :=
  match id with BRow i => nth i r 0%Z | BCol j => (- nth j c 0)%Z end.

Lemma lp_row_scaled r c p i :
  Forall2 Qeq (lp_row (scale r c p) i) (vscale (pow2 (nth i r 0%Z)) (dscale c (lp_row p i))).
Proof.
  unfold lp_row. cbn [lm_cols scale]. generalize (lm_cols p) as cols. intros cols. revert c.
  induction cols as [|col cols IH]; intros c; simpl; constructor; [rewrite vnth_scale_col; ring | apply IH].
Qed.

Lemma rb_vec_scaled r c p id :
  Forall2 Qeq (rb_vec (scale r c p) id) (vscale (pow2 (rb_exp r c id)) (dscale c (rb_vec p id))).
Proof.
  destruct id; cbn [rb_vec rb_exp]; [apply lp_row_scaled | rewrite lm_ncols_scale; apply unit_vec_scaled].
Qed.

Lemma dot_rb_vec_scaled r c p id x :
  dot x (rb_vec (scale r c p) id) == pow2 (rb_exp r c id) * dot (dscale c x) (rb_vec p id).
Proof. rewrite (dot_F2_r _ _ _ (rb_vec_scaled r c p id)), dot_vscale_r, dot_dscale. reflexivity. Qed.

Lemma pow2_mul_opp k a : pow2 k * a * pow2 (- k) == a.
Proof. transitivity (a * (pow2 k * pow2 (- k))); [ring | rewrite pow2_opp_r; ring]. Qed.

Lemma lp_row_unscaled_scale r c p i : Forall2 Qeq (lp_row_unscaled r c (scale r c p) i) (lp_row p i).
Proof.
  apply F2_of_vnth.
  - unfold lp_row_unscaled, vscale. rewrite dscale_length, map_length, !lp_row_length. apply lm_ncols_scale.
  - intros j. unfold lp_row_unscaled.
    rewrite vnth_dscale, vnth_vscale, (vnth_F2 _ _ (lp_row_scaled r c p i) j), vnth_vscale, vnth_dscale, nth_zneg.
    transitivity (vnth (lp_row p i) j * (pow2 (nth i r 0%Z) * pow2 (- nth i r 0%Z)) * (pow2 (nth j c 0%Z) * pow2 (- nth j c 0%Z)));
      [ring | rewrite !pow2_opp_r; ring].
Qed.

Lemma binv_times_vec_rowrep_fixed_unscale p ids r c coSolve v :
  ids_ok p ids -> wf_lp p = true -> length ids = lm_ncols p ->
  (forall b, length b = lm_ncols p -> veq (vmul (coSolve b) (rb_matrix (scale r c p) ids)) b) ->
  length v = lm_rows p ->
  veq (mulv (basis_matrix p (bind_rowrep (lm_rows p) (lm_ncols p) ids))
            (binv_times_vec_rowrep_fixed coSolve true r c (scale r c p) ids v)) v.
Proof.
  intros Hids Hwf Hlen Hs Hv. unfold binv_times_vec_rowrep_fixed. cbv beta iota zeta.
  rewrite lm_ncols_scale. cbn [lm_rows scale]. rewrite basis_matrix_compl, bind_rowrep_compl.
  set (rowrhs := map _ ids). set (y' := coSolve rowrhs).
  rewrite (map_code _ (fun i => vnth v i - dot (lp_row (scale r c p) i) y' * pow2 (- nth i r 0%Z))
                      (fun j => vnth y' j * pow2 (nth j c 0%Z))).
  intros i. rewrite (mulv_x_ext _ _ (rowrep_col_coef p (compl (lm_rows p) (lm_ncols p) ids) v (dscale c y'))).
  2:{ apply Forall2_map_ext_in. intros [i'|j] _; [|rewrite vnth_dscale; reflexivity].
      rewrite dot_comm, (dot_rb_vec_scaled r c p (BRow i')), pow2_mul_opp, dot_comm. reflexivity. }
  revert i. apply (rowrep_solve_from_x p ids Hids Hwf _ v Hv). intros t Ht.
  apply (pow2_cancel (rb_exp r c (nth t ids (BCol 0)))).
  rewrite <- dot_rb_vec_scaled, vmul_rb_rows by exact Ht. unfold y'.
  rewrite (Hs rowrhs (eq_trans (map_length _ _) Hlen) t).
  unfold rowrhs. rewrite !(vnth_map _ _ _ t (BCol 0) Ht). destruct (nth t ids (BCol 0)); cbn [rb_exp]; ring.
Qed.

Lemma binv_col_rowrep_fixed_unscale p ids r c coSolve k :
  ids_ok p ids -> wf_lp p = true -> length ids = lm_ncols p ->
  (forall b, length b = lm_ncols p -> veq (vmul (coSolve b) (rb_matrix (scale r c p) ids)) b) ->
  (k < lm_rows p)%nat ->
  veq (mulv (basis_matrix p (bind_rowrep (lm_rows p) (lm_ncols p) ids))
            (binv_col_rowrep_fixed coSolve true r c (scale r c p) ids k))
      (unit_vec (lm_rows p) k).
Proof.
  intros Hids Hwf Hlen Hs Hk. unfold binv_col_rowrep_fixed. cbv beta iota zeta.
  rewrite lm_ncols_scale. cbn [lm_rows scale].
  destruct (is_row_basic ids k) eqn:Ek; cbn [negb]; [|apply (rowrep_unit_case p ids Hids Hwf k Hk Ek)].
  apply is_row_basic_In in Ek. destruct (row_pos_spec ids k (BCol 0) Ek) as [_ Epos].
  rewrite basis_matrix_compl, bind_rowrep_compl.
  set (rhs := vscale _ _). set (x' := coSolve rhs).
  rewrite (map_code _ (fun i => - dot (lp_row_unscaled r c (scale r c p) i) (dscale c x')) (vnth (dscale c x'))).
  intros i. rewrite (mulv_x_ext _ _ (rowrep_col_coef p (compl (lm_rows p) (lm_ncols p) ids) [] (dscale c x'))).
  2:{ apply Forall2_map_ext_in. intros [i'|j] _; [|reflexivity].
      rewrite (dot_F2_l _ _ _ (lp_row_unscaled_scale r c p i')), vnth_nil. ring. }
  revert i. apply (rowrep_col_from_x p ids Hids Hwf _ k Hlen Hk Ek). intros t Ht.
  apply (scaled_unit_cancel (fun s => rb_exp r c (nth s ids (BCol 0)))). cbv beta. rewrite Epos. cbn [rb_exp].
  rewrite <- dot_rb_vec_scaled, vmul_rb_rows by exact Ht.
  unfold x'. rewrite (Hs rhs (eq_trans (map_length _ _) (unit_vec_length _ _)) t).
  apply vnth_vscale.
Qed.

(* Soundness of the checkers that judge the answers of the implementation *)

Lemma forallb_vnth (P : Q -> bool) u : P 0 = true -> forallb P u = true -> forall i, P (vnth u i) = true.
Proof.
  intros P0. induction u as [|a u IH]; intros H i; [rewrite vnth_nil; exact P0|].
  simpl in H. apply andb_true_iff in H as [Ha Hu]. destruct i; simpl; [exact Ha | apply IH, Hu].
Qed.

Lemma all_zero_spec u : all_zero u = true -> forall i, vnth u i == 0.
Proof. intros H i. apply Qeq_bool_eq, (forallb_vnth (fun a => Qeq_bool a 0)); [reflexivity | exact H]. Qed.

Lemma veqb_sound u v : veqb u v = true -> veq u v.
Proof.
  revert v. induction u as [|a u IH]; intros v H i.
  - simpl in H. rewrite vnth_nil. symmetry. apply all_zero_spec. exact H.
  - destruct v as [|b v].
    + rewrite vnth_nil. apply all_zero_spec. exact H.
    + simpl in H. apply andb_true_iff in H as [Hab Huv]. destruct i; simpl.
      * apply Qeq_bool_eq. exact Hab.
      * apply IH. exact Huv.
Qed.

Lemma all_zero_complete u : (forall i, vnth u i == 0) -> all_zero u = true.
Proof.
  unfold all_zero. induction u as [|a u IH]; intros H; simpl; [reflexivity|].
  apply andb_true_iff. split.
  - apply Qeq_eq_bool. exact (H 0%nat).
  - apply IH. intros i. exact (H (S i)).
Qed.

Lemma veqb_complete u v : veq u v -> veqb u v = true.
Proof.
  revert v. induction u as [|a u IH]; intros v H.
  - simpl. apply all_zero_complete. intros i. rewrite <- (H i), vnth_nil. reflexivity.
  - destruct v as [|b v].
    + apply all_zero_complete. intros i. rewrite (H i), vnth_nil. reflexivity.
    + simpl. apply andb_true_iff. split.
      * apply Qeq_eq_bool. exact (H 0%nat).
      * apply IH. intros i. exact (H (S i)).
Qed.

Lemma veqb_iff u v : veqb u v = true <-> veq u v.
Proof. split; [apply veqb_sound | apply veqb_complete]. Qed.

Lemma wf_bind_spec p bind : wf_bind p bind = true -> length bind = lm_rows p /\ forall b, In b bind -> bind_ok p b = true.
Proof.
  unfold wf_bind. intros H. apply andb_true_iff in H as [H1 H2]. split.
  - apply Nat.eqb_eq. exact H1.
  - apply forallb_forall. exact H2.
Qed.

Lemma check_binv_col_iff p bind col k :
  check_binv_col p bind col k = true <->
  wf_bind p bind = true /\ (k < lm_rows p)%nat /\ veq (mulv (basis_matrix p bind) col) (unit_vec (lm_rows p) k).
Proof. unfold check_binv_col. rewrite !andb_true_iff, Nat.ltb_lt, veqb_iff. tauto. Qed.

Lemma check_binv_row_iff p bind row k :
  check_binv_row p bind row k = true <->
  wf_bind p bind = true /\ (k < lm_rows p)%nat /\ veq (vmul row (basis_matrix p bind)) (unit_vec (lm_rows p) k).
Proof. unfold check_binv_row. rewrite !andb_true_iff, Nat.ltb_lt, veqb_iff. tauto. Qed.

Lemma check_solve_iff p bind rhs sol :
  check_solve p bind rhs sol = true <->
  wf_bind p bind = true /\ veq (mulv (basis_matrix p bind) sol) rhs.
Proof. unfold check_solve. rewrite andb_true_iff, veqb_iff. tauto. Qed.

Lemma check_mult_iff p bind v out :
  check_mult p bind v out = true <->
  wf_bind p bind = true /\ veq out (mulv (basis_matrix p bind) v).
Proof. unfold check_mult. rewrite andb_true_iff, veqb_iff. tauto. Qed.

Lemma check_multT_iff p bind v out :
  check_multT p bind v out = true <->
  wf_bind p bind = true /\ veq out (vmul v (basis_matrix p bind)).
Proof. unfold check_multT. rewrite andb_true_iff, veqb_iff. tauto. Qed.

Lemma qmax_ge_r a b : b <= qmax a b.
Proof.
  unfold qmax. destruct (Qle_bool a b) eqn:E.
  - apply Qle_refl.
  - destruct (Qlt_le_dec b a) as [L|L]; [apply Qlt_le_weak; exact L|].
    apply Qle_bool_iff in L. congruence.
Qed.

Lemma norm_inf_nonneg v : 0 <= norm_inf v.
Proof.
  induction v as [|a v IH]; simpl; [apply Qle_refl|].
  eapply Qle_trans; [exact IH | apply qmax_ge_r].
Qed.

Lemma tol_nonneg eps nB nx nb : 0 <= eps -> 0 <= nB -> 0 <= nx -> 0 <= nb -> 0 <= eps * (1 + nB * nx + nb).
Proof. intros. assert (0 <= nB * nx) by (apply Qmult_le_0_compat; assumption). apply Qmult_le_0_compat; lra. Qed.

Lemma tol_right_nonneg eps B x b : 0 <= eps -> 0 <= tol_right eps B x b.
Proof. intros H. unfold tol_right, norm_inf_mat. apply tol_nonneg; auto using norm_inf_nonneg. Qed.

Lemma tol_left_nonneg eps B x b : 0 <= eps -> 0 <= tol_left eps B x b.
Proof. intros H. unfold tol_left, norm_one_mat. apply tol_nonneg; auto using norm_inf_nonneg. Qed.

Lemma all_small_spec t u : 0 <= t -> forallb (fun a => Qle_bool (Qabs a) t) u = true -> forall i, Qabs (vnth u i) <= t.
Proof.
  intros Ht H i. apply Qle_bool_iff, (forallb_vnth (fun a => Qle_bool (Qabs a) t)); [apply Qle_bool_iff; exact Ht | exact H].
Qed.

Lemma vclose_sound t u v : 0 <= t -> vclose t u v = true -> forall i, Qabs (vnth u i - vnth v i) <= t.
Proof.
  intros Ht. revert v. induction u as [|a u IH]; intros v H i.
  - simpl in H. rewrite vnth_nil.
    assert (E : 0 - vnth v i == - vnth v i) by ring. rewrite E, Qabs_opp. apply all_small_spec; assumption.
  - destruct v as [|b v].
    + rewrite vnth_nil. assert (E : vnth (a :: u) i - 0 == vnth (a :: u) i) by ring. rewrite E.
      apply all_small_spec; assumption.
    + simpl in H. apply andb_true_iff in H as [Hab Huv]. destruct i; simpl.
      * apply Qle_bool_iff. exact Hab.
      * apply IH. exact Huv.
Qed.

Lemma check_binv_col_tol_sound eps p bind col k :
  0 <= eps -> check_binv_col_tol eps p bind col k = true ->
  wf_bind p bind = true /\ (k < lm_rows p)%nat /\
  forall i, Qabs (vnth (mulv (basis_matrix p bind) col) i - vnth (unit_vec (lm_rows p) k) i)
            <= tol_right eps (basis_matrix p bind) col (unit_vec (lm_rows p) k).
Proof.
  unfold check_binv_col_tol. rewrite !andb_true_iff, Nat.ltb_lt. intros He [[H1 H2] H3].
  repeat split; auto using vclose_sound, tol_right_nonneg.
Qed.

Lemma check_binv_row_tol_sound eps p bind row k :
  0 <= eps -> check_binv_row_tol eps p bind row k = true ->
  wf_bind p bind = true /\ (k < lm_rows p)%nat /\
  forall j, Qabs (vnth (vmul row (basis_matrix p bind)) j - vnth (unit_vec (lm_rows p) k) j)
            <= tol_left eps (basis_matrix p bind) row (unit_vec (lm_rows p) k).
Proof.
  unfold check_binv_row_tol. rewrite !andb_true_iff, Nat.ltb_lt. intros He [[H1 H2] H3].
  repeat split; auto using vclose_sound, tol_left_nonneg.
Qed.

Lemma check_solve_tol_sound eps p bind rhs sol :
  0 <= eps -> check_solve_tol eps p bind rhs sol = true ->
  wf_bind p bind = true /\
  forall i, Qabs (vnth (mulv (basis_matrix p bind) sol) i - vnth rhs i) <= tol_right eps (basis_matrix p bind) sol rhs.
Proof.
  unfold check_solve_tol. rewrite andb_true_iff. intros He [H1 H2]. split; auto using vclose_sound, tol_right_nonneg.
Qed.

Lemma check_mult_tol_sound eps p bind v out :
  0 <= eps -> check_mult_tol eps p bind v out = true ->
  wf_bind p bind = true /\
  forall i, Qabs (vnth out i - vnth (mulv (basis_matrix p bind) v) i) <= tol_right eps (basis_matrix p bind) v out.
Proof.
  unfold check_mult_tol. rewrite andb_true_iff. intros He [H1 H2]. split; auto using vclose_sound, tol_right_nonneg.
Qed.

Lemma check_multT_tol_sound eps p bind v out :
  0 <= eps -> check_multT_tol eps p bind v out = true ->
  wf_bind p bind = true /\
  forall j, Qabs (vnth out j - vnth (vmul v (basis_matrix p bind)) j) <= tol_left eps (basis_matrix p bind) v out.
Proof.
  unfold check_multT_tol. rewrite andb_true_iff. intros He [H1 H2]. split; auto using vclose_sound, tol_left_nonneg.
Qed.

Lemma nonzero_from_filter coef k :
  nonzero_from k coef = filter (fun i => negb (Qeq_bool (vnth coef (i - k)) 0)) (seq k (length coef)).
Proof.
  revert k. induction coef as [|a coef IH]; intros k; simpl; [reflexivity|].
  rewrite Nat.sub_diag, (filter_ext_in _ (fun i => negb (Qeq_bool (vnth coef (i - S k)) 0)) (seq (S k) (length coef))).
  - rewrite <- IH. simpl. destruct (Qeq_bool a 0); reflexivity.
  - intros i Hi. apply in_seq in Hi. replace (i - k)%nat with (S (i - S k)) by lia. reflexivity.
Qed.

Lemma nat_list_eqb_eq a b : nat_list_eqb a b = true -> a = b.
Proof.
  revert b. induction a as [|x a IH]; intros [|y b] H; simpl in H; try discriminate; [reflexivity|].
  apply andb_true_iff in H as [H1 H2]. apply Nat.eqb_eq in H1. subst. f_equal. apply IH. exact H2.
Qed.

Lemma check_inds_sound coef inds :
  check_inds coef inds = true -> forall i, In i inds <-> (i < length coef)%nat /\ ~ vnth coef i == 0.
Proof.
  unfold check_inds. intros H i. apply nat_list_eqb_eq in H. subst inds.
  rewrite nonzero_from_filter, filter_In, in_seq, Nat.sub_0_r, negb_true_iff, <- not_true_iff_false, Qeq_bool_iff.
  split; intros [H1 H2]; (split; [lia | exact H2]).
Qed.

(* row representation: three branches whose faithful model does NOT return the answer for the user's matrix although
   the inner solve is exact (witnesses evaluated by vm_compute) *)

(* (a) getBasisInverseColReal, ROW representation, scaled LP, unscale = true.
       LP: one row, one column, a_00 = 1; scale exponents r = [1], c = [0] (stored entry 2); the row is in the row
       basis, i.e. column 0 is basic for the user: B = (1), B^-1 e_0 = (1).  The code returns (1/4). *)
Definition wa_p : lpmat := mkLPM 1 [[1]].
Definition wa_r : list Z := [1%Z].
Definition wa_c : list Z := [0%Z].
Definition wa_ids : list bid := [BRow 0].
Definition wa_coSolve (b : vec) : vec := [vnth b 0 * (1 # 2)].

Lemma wa_oracle_exact :
  forall b, length b = lm_ncols wa_p -> veq (vmul (wa_coSolve b) (rb_matrix (scale wa_r wa_c wa_p) wa_ids)) b.
Proof.
  intros [|b0 [|b1 b]] Hb; try discriminate Hb. intros [|i].
  - unfold wa_coSolve, vmul, rb_matrix, rb_vec, lp_row, scale, wa_p, wa_r, wa_c, wa_ids. cbn [map lm_cols lm_rows scale_cols scale_col hd tl vnth dot].
    change (pow2 (1 + 0)) with (2 # 1). ring.
  - reflexivity.
Qed.

Lemma binv_col_rowrep_scaled_wrong :
  ~ veq (mulv (basis_matrix wa_p (bind_rowrep 1 1 wa_ids))
              (binv_col_rowrep wa_coSolve true wa_r wa_c (scale wa_r wa_c wa_p) wa_ids 0))
        (unit_vec 1 0).
Proof. intro H. specialize (H 0%nat). vm_compute in H. discriminate H. Qed.

(* (b) getBasisInverseTimesVecReal, ROW representation, scaled LP, unscale = true.
       Same LP and exponents, but the column is in the row basis (non-basic for the user), so B = (e_0) = (1) and
       B^-1 v = v.  The code returns v * 2^-r_0. *)
Definition wb_ids : list bid := [BCol 0].
Definition wb_coSolve (b : vec) : vec := [vnth b 0].

Lemma wb_oracle_exact :
  forall b, length b = lm_ncols wa_p -> veq (vmul (wb_coSolve b) (rb_matrix (scale wa_r wa_c wa_p) wb_ids)) b.
Proof.
  intros [|b0 [|b1 b]] Hb; try discriminate Hb. intros [|i].
  - unfold wb_coSolve, vmul, rb_matrix, rb_vec, wb_ids. cbn. ring.
  - reflexivity.
Qed.

Lemma binv_times_vec_rowrep_scaled_wrong :
  ~ veq (mulv (basis_matrix wa_p (bind_rowrep 1 1 wb_ids))
              (binv_times_vec_rowrep wb_coSolve true wa_r wa_c (scale wa_r wa_c wa_p) wb_ids [1]))
        [1].
Proof. intro H. specialize (H 0%nat). vm_compute in H. discriminate H. Qed.

(* (c) multBasis, ROW representation (no scaling involved): two rows, one column, the column in the row basis, so
       both slacks are basic for the user, B = I and B (1,1) = (1,1).  The code returns (0,1). *)
Definition wc_p : lpmat := mkLPM 2 [[1; 1]].
Definition wc_ids : list bid := [BCol 0].

Lemma mult_rowrep_wrong :
  ~ veq (mult_rowrep wc_p wc_ids [1; 1]) (mulv (basis_matrix wc_p (bind_rowrep 2 1 wc_ids)) [1; 1]).
Proof. intro H. specialize (H 0%nat). vm_compute in H. discriminate H. Qed.

(* LP matrix (rows x columns) [[2,1,4],[1,3,-8]], exponents r = [1,-2], c = [-1,0,3]; basis = (slack of row 0, column 1) *)
Definition ex_p : lpmat := mkLPM 2 [[2; 1]; [1; 3]; [4; -8]].
Definition ex_r : list Z := [1%Z; (-2)%Z].
Definition ex_c : list Z := [(-1)%Z; 0%Z; 3%Z].
Definition ex_bind : list Z := [(-1)%Z; 1%Z].
(* the stored basis is [[1,0],[2,3/4]] (columns); its inverse has the columns [1,0] and [-8/3,4/3] *)
Definition ex_inv : mat := [[1; 0]; [-(8 # 3); 4 # 3]].
Definition ex_solve (b : vec) : vec := mulv ex_inv b.
Definition ex_coSolve (b : vec) : vec := vmul b ex_inv.

Lemma ex_solve_exact :
  forall b, length b = lm_rows ex_p -> veq (mulv (basis_matrix (scale ex_r ex_c ex_p) ex_bind) (ex_solve b)) b.
Proof.
  intros [|b0 [|b1 [|b2 b]]] Hb; try discriminate Hb.
  set (Bs := basis_matrix _ _). vm_compute in Bs. subst Bs. unfold ex_solve, ex_inv, mulv.
  intros [|[|i]]; cbn [tmat_vec vadd vscale map vnth]; try ring; destruct i; reflexivity.
Qed.

Lemma ex_coSolve_exact :
  forall b, length b = lm_rows ex_p -> veq (vmul (ex_coSolve b) (basis_matrix (scale ex_r ex_c ex_p) ex_bind)) b.
Proof.
  intros [|b0 [|b1 [|b2 b]]] Hb; try discriminate Hb.
  set (Bs := basis_matrix _ _). vm_compute in Bs. subst Bs. unfold ex_coSolve, ex_inv, vmul.
  intros [|[|i]]; cbn [map dot vnth]; try ring; destruct i; reflexivity.
Qed.

(* row basis of ex_p = [[2,1,4],[1,3,-8]]: the bounds of columns 0 and 2 and row 1; the user's basis is (slack 0, column 1) *)
Definition exr_ids : list bid := [BCol 0; BCol 2; BRow 1].
Definition exr_inv : mat := [[1; 0; 0]; [-(1 # 3); 8 # 3; 1 # 3]; [0; 1; 0]].
Definition exr_solve (b : vec) : vec := mulv exr_inv b.

Lemma exr_ids_ok : ids_ok ex_p exr_ids.
Proof.
  split.
  - repeat constructor; simpl; intuition discriminate.
  - intros id [H|[H|[H|[]]]]; subst; vm_compute; repeat constructor.
Qed.

Lemma exr_solve_exact : forall b, length b = lm_ncols ex_p -> veq (mulv (rb_matrix ex_p exr_ids) (exr_solve b)) b.
Proof.
  intros [|b0 [|b1 [|b2 [|b3 b]]]] Hb; try discriminate Hb.
  set (M := rb_matrix _ _). vm_compute in M. subst M. unfold exr_solve, exr_inv, mulv.
  intros [|[|[|i]]]; cbn [tmat_vec vadd vscale map vnth]; try ring; destruct i; reflexivity.
Qed.
