(* C14 - Basis files and state files restore exactly what was saved.
   BAS files at record level.  Each theorem is closed by a lemma of BasisFile_Proofs.v or a short derivation from
   them (the refutation by a computed witness); Examples show that hypotheses are satisfiable.
   The state-file part (LP + settings + basis into a new solver) is validated per run by checks/C14.py. *)
From Coq Require Import QArith Bool List ZArith String.
From SV Require Import BasisModel BasisModel_Proofs BasisFileModel BasisFile_Proofs.
Import ListNotations.
Local Open Scope nat_scope.

(* Writing a valid descriptor and reading the records back - with any injective name lists, in both formats -
   yields exactly what loadDesc makes of the descriptor.  [free_ok]: a P_FREE entry on a properly boxed variable
   has no representation in the file; it is excluded unless loadDesc would put it on the lower bound anyway. *)
Theorem C14_bas_roundtrip : forall lp d rn cn cpx,
  isDescValid lp d = true -> free_ok lp d = true ->
  NoDup rn -> NoDup cn -> List.length rn = nRows lp -> List.length cn = nCols lp ->
  readBasis lp rn cn (writeBasis lp d rn cn cpx) = Some (loadDesc lp d).
Proof. exact bas_roundtrip. Qed.
Print Assumptions C14_bas_roundtrip.

(* Every descriptor a solver holds after loadDesc (setBasis, readBasis, unsimplified bases) restores exactly. *)
Theorem C14_bas_roundtrip_loaded : forall lp ds rn cn cpx,
  List.length (d_rows ds) = nRows lp -> List.length (d_cols ds) = nCols lp ->
  NoDup rn -> NoDup cn -> List.length rn = nRows lp -> List.length cn = nCols lp ->
  readBasis lp rn cn (writeBasis lp (loadDesc lp ds) rn cn cpx) = Some (loadDesc lp ds).
Proof. exact bas_roundtrip_loaded. Qed.
Print Assumptions C14_bas_roundtrip_loaded.

(* The second writer (status arrays kept outside the solver) writes the same records as the first. *)
Theorem C14_outside_writer_agrees : forall lp d rn cn cpx,
  writeBasisOutside lp (fst (getBasis d)) (snd (getBasis d)) rn cn cpx = writeBasis lp d rn cn cpx.
Proof. exact writeOutside_agrees. Qed.
Print Assumptions C14_outside_writer_agrees.

(* Default names x<j>, C<i> with decimal printing are injective. *)
Theorem C14_default_names_injective : forall p a b, dname p a = dname p b -> a = b.
Proof. exact dname_inj. Qed.
Print Assumptions C14_default_names_injective.

Theorem C14_default_names_NoDup : forall p n, NoDup (default_names p n).
Proof. exact default_names_NoDup. Qed.
Print Assumptions C14_default_names_NoDup.

(* File level with user names for rows and columns, both formats, both writers. *)
Theorem C14_file_roundtrip_user_names : forall lp d rn cn cpx,
  isDescValid lp d = true -> free_ok lp d = true ->
  NoDup rn -> NoDup cn -> List.length rn = nRows lp -> List.length cn = nCols lp ->
  readBasisFile lp (Some rn) (Some cn) (writeBasisFile lp d (Some rn) (Some cn) cpx) = Some (loadDesc lp d) /\
  readBasisFile lp (Some rn) (Some cn)
    (writeBasisFileOutside lp (fst (getBasis d)) (snd (getBasis d)) (Some rn) (Some cn) cpx) = Some (loadDesc lp d).
Proof.
  intros lp d rn cn cpx HV HF NDr NDc Lr Lc.
  exact (file_roundtrip lp d (Some rn) (Some cn) cpx HV HF (conj NDr Lr) (conj NDc Lc)).
Qed.
Print Assumptions C14_file_roundtrip_user_names.

(* With default names the round trip holds for the documented construction of the reader's names ... *)
Theorem C14_bas_roundtrip_default_names_intended : forall lp d cpx,
  isDescValid lp d = true -> free_ok lp d = true ->
  readBasisFile_intended lp None None (writeBasisFile lp d None None cpx) = Some (loadDesc lp d).
Proof. intros lp d cpx HV HF. exact (proj1 (file_roundtrip lp d None None cpx HV HF I I)). Qed.
Print Assumptions C14_bas_roundtrip_default_names_intended.

(* ... and is refuted for the construction in the code (one stringstream that is never cleared: x0, x0x1, ...):
   a valid basis with the second column non-basic at its upper bound is written as "UL x1", a name the reader does
   not know, so readBasisFile fails. *)
Definition ex14_lp : blp :=
  mkBlp [mkVar None (Some 10%Q) 0%Q]
        [mkVar (Some 0%Q) (Some 4%Q) (-1)%Q; mkVar (Some 0%Q) (Some 5%Q) 2%Q].
Definition ex14_d : desc := mkDesc [D_ON_LOWER] [P_ON_LOWER; P_ON_UPPER].

Theorem C14_bas_roundtrip_default_names_refuted : exists lp d,
  isDescValid lp d = true /\ free_ok lp d = true /\
  readBasisFile lp None None (writeBasisFile lp d None None false) = None /\
  readBasisFile_intended lp None None (writeBasisFile lp d None None false) = Some (loadDesc lp d).
Proof. exists ex14_lp, ex14_d. vm_compute. repeat split. Qed.
Print Assumptions C14_bas_roundtrip_default_names_refuted.

(* Non-vacuity *)
Example C14_ex_records :
  writeBasis ex14_lp (mkDesc [P_ON_UPPER] [D_ON_BOTH; P_ON_UPPER]) ["r0"%string] ["a"%string; "b"%string] false
  = [mkRec XU "a" (Some "r0"%string); mkRec UL "b" None]
  /\ isDescValid ex14_lp (mkDesc [P_ON_UPPER] [D_ON_BOTH; P_ON_UPPER]) = true
  /\ free_ok ex14_lp (mkDesc [P_ON_UPPER] [D_ON_BOTH; P_ON_UPPER]) = true.
Proof. vm_compute. repeat split. Qed.

Example C14_ex_names : default_names "x" 3 = ["x0"; "x1"; "x2"]%string /\ accum_names "x" 3 = ["x0"; "x0x1"; "x0x1x2"]%string
  /\ dname "C" 120 = "C120"%string.
Proof. vm_compute. repeat split. Qed.
