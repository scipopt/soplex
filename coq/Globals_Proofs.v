(* C18 - steps of different solver objects on a memory of per-object cells (GlobalsModel.v): well-scoped steps of
   different actors commute, and an interleaving shows each object what its own steps alone would. *)
From Coq Require Import List String Bool Arith Lia.
From SV Require Import GlobalsModel.
Import ListNotations.

Lemma cell_eqb_true a b : cell_eqb a b = true <-> a = b.
Proof.
  destruct a, b; simpl; try (split; [discriminate | intros H; discriminate H]).
  - rewrite andb_true_iff, !Nat.eqb_eq. split; [intros [-> ->]; reflexivity | intros H; injection H; auto].
  - rewrite Nat.eqb_eq. split; [intros ->; reflexivity | intros H; injection H; auto].
Qed.

(* two steps commute, on every memory and every cell, exactly when they write different cells or the same value *)
Lemma steps_commute_iff (a b : step) :
  (target a <> target b \/ value a = value b) <->
  forall (m : mem) c, apply (apply m a) b c = apply (apply m b) a c.
Proof.
  unfold apply. split.
  - intros H m c. destruct (cell_eqb c (target b)) eqn:Eb; destruct (cell_eqb c (target a)) eqn:Ea; auto.
    apply cell_eqb_true in Eb, Ea. destruct H as [H|H]; [congruence | now symmetry].
  - intros H. specialize (H (fun _ => 0) (target a)). rewrite (proj2 (cell_eqb_true _ _) eq_refl) in H.
    destruct (cell_eqb (target a) (target b)) eqn:E; [right; now symmetry | left; intros Q; rewrite Q in E].
    now rewrite (proj2 (cell_eqb_true _ _) eq_refl) in E.
Qed.

Lemma steps_commute (m : mem) (a b : step) :
  well_scoped a -> well_scoped b -> actor a <> actor b ->
  forall c, apply (apply m a) b c = apply (apply m b) a c.
Proof.
  unfold well_scoped. intros Ha Hb Hne. apply steps_commute_iff. left. intros E. rewrite E in Ha.
  destruct (target b); [congruence | contradiction].
Qed.

(* the steps of actor i, in order *)
Definition mine (i : nat) (l : list step) : list step := filter (fun s => Nat.eqb (actor s) i) l.

Lemma apply_other (m : mem) (s : step) i k : well_scoped s -> actor s <> i -> apply m s (Own i k) = m (Own i k).
Proof.
  intros Hs Hne. unfold apply. destruct (cell_eqb (Own i k) (target s)) eqn:E; auto.
  apply cell_eqb_true in E. unfold well_scoped in Hs. rewrite <- E in Hs. congruence.
Qed.

(* what thread i sees of its own object after ANY interleaving equals what it sees when it runs alone:
   the projection of a run on the cells of object i depends only on the steps of actor i *)
Theorem interleaving_invisible (l : list step) : forall (m m' : mem) i,
  Forall (fun s => actor s <> i -> well_scoped s) l -> (forall k, m (Own i k) = m' (Own i k)) ->
  forall k, run m l (Own i k) = run m' (mine i l) (Own i k).
Proof.
  induction l as [|s l IH]; intros m m' i Hw Hm k; simpl.
  - apply Hm.
  - inversion Hw as [|? ? Hs Hl]; subst. destruct (Nat.eqb (actor s) i) eqn:E.
    + simpl. apply IH; auto. intros k'. unfold apply.
      destruct (cell_eqb (Own i k') (target s)); auto.
    + apply Nat.eqb_neq in E. apply IH; auto. intros k'. rewrite apply_other; auto.
Qed.
