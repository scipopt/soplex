(* Lemmas about the BAS file model (C14). *)
From Coq Require Import QArith Bool List ZArith String Ascii DecimalString Decimal DecimalNat FinFun Lia.
From SV Require Import ListAux BasisModel BasisModel_Proofs BasisFileModel.
Import ListNotations.
Local Open Scope nat_scope.

Lemma find_name_app : forall nm pre suf, ~ In nm pre -> find_name nm (pre ++ nm :: suf) = Some (List.length pre).
Proof.
  intros nm pre suf. induction pre as [|a pre IH]; intros H; cbn.
  - rewrite String.eqb_refl. reflexivity.
  - destruct (String.eqb nm a) eqn:E.
    + apply String.eqb_eq in E. subst. exfalso. apply H. left. reflexivity.
    + rewrite IH; [reflexivity|]. intro K. apply H. right. exact K.
Qed.

Lemma set_nth_app : forall (A : Type) (pre : list A) x y suf,
  set_nth (List.length pre) y (pre ++ x :: suf) = pre ++ y :: suf.
Proof. intros A pre x y suf. induction pre as [|a pre IH]; cbn; [reflexivity|]. rewrite IH. reflexivity. Qed.

(* What the reader holds after reading what the writer wrote, entry by entry *)

(* the status read back for a column / row that was written with status s *)
Definition exp_col' (v : var) (s : DStatus) : DStatus :=
  if is_dual s then dualStatus v else if ds_eqb s P_ON_UPPER then P_ON_UPPER else default_col v.

Definition exp_row' (cpx : bool) (v : var) (s : DStatus) : DStatus :=
  if is_dual s then dualStatus v else x_row_status (x_tag cpx v s) (rowType v).

Definition exp_col (e : ent) : DStatus := exp_col' (e_var e) (e_stat e).
Definition exp_row (cpx : bool) (e : ent) : DStatus := exp_row' cpx (e_var e) (e_stat e).

Lemma rt_col : forall v s, entry_valid v s && free_ok1 v s = true -> repair v (exp_col' v s) = repair v s.
Proof. intros v s. unfold entry_valid, free_ok1, exp_col', default_col, repair, dualStatus. entry_table v s. Qed.

Lemma rt_row : forall cpx v s, entry_valid v s && free_ok1 v s = true -> repair v (exp_row' cpx v s) = repair v s.
Proof.
  intros cpx v s. unfold entry_valid, free_ok1, exp_row', x_tag, is_range, rowType, repair, dualStatus.
  destruct cpx; entry_table v s.
Qed.

Lemma exp_row_dual : forall cpx e, is_dual (e_stat e) = true -> exp_row cpx e = dualStatus (e_var e).
Proof. intros cpx e H. unfold exp_row, exp_row'. rewrite H. reflexivity. Qed.

Lemma exp_row_primal : forall cpx e, is_dual (e_stat e) = false ->
  exp_row cpx e = x_row_status (x_tag cpx (e_var e) (e_stat e)) (rowType (e_var e)).
Proof. intros cpx e H. unfold exp_row, exp_row'. rewrite H. reflexivity. Qed.

Definition names (l : list ent) : list string := map e_name l.
Definition vars (l : list ent) : list var := map e_var l.
Definition stats (l : list ent) : list DStatus := map e_stat l.

Lemma skip_basic_split : forall rows, 0 < count_primal (stats rows) ->
  exists rb e rows', rows = rb ++ e :: rows' /\ Forall (fun x => is_dual (e_stat x) = true) rb /\
                     is_dual (e_stat e) = false /\ skip_basic rows = e :: rows'.
Proof.
  unfold count_primal, stats. induction rows as [|x rows IH]; intros H; cbn in H; [lia|].
  destruct (is_dual (e_stat x)) eqn:E; cbn in H.
  - destruct (IH H) as [rb [e [rows' [A [B [C D]]]]]].
    exists (x :: rb), e, rows'. repeat split.
    + cbn. rewrite A. reflexivity.
    + constructor; assumption.
    + exact C.
    + cbn. rewrite E. exact D.
  - exists [], x, rows. repeat split.
    + constructor.
    + exact E.
    + cbn. rewrite E. reflexivity.
Qed.

Lemma count_primal_all_dual : forall rb, Forall (fun x => is_dual (e_stat x) = true) rb -> count_primal (stats rb) = 0.
Proof.
  unfold count_primal, stats. induction rb as [|x rb IH]; intros H; cbn; [reflexivity|].
  inversion H; subst. rewrite H2. cbn. apply IH. assumption.
Qed.

Lemma map_exp_row_all_dual : forall cpx rb, Forall (fun x => is_dual (e_stat x) = true) rb ->
  map (exp_row cpx) rb = map dualStatus (vars rb).
Proof.
  intros cpx rb H. unfold vars. induction rb as [|x rb IH]; cbn; [reflexivity|].
  inversion H; subst. rewrite exp_row_dual by assumption. rewrite IH by assumption. reflexivity.
Qed.

Lemma all_dual_of_count : forall rows, count_primal (stats rows) = 0 -> Forall (fun x => is_dual (e_stat x) = true) rows.
Proof.
  unfold count_primal, stats. induction rows as [|x rows IH]; intros H; [constructor|].
  cbn in H. destruct (is_dual (e_stat x)) eqn:E; cbn in H; [|discriminate]. constructor; [exact E | apply IH, H].
Qed.

Lemma nth_map_middle : forall (A B : Type) (f : A -> B) l x l' d, nth (List.length l) (map f l ++ x :: l') d = x.
Proof. intros. rewrite <- (map_length f l). apply nth_middle. Qed.

Lemma set_nth_map_middle : forall (A B : Type) (f : A -> B) l x y suf,
  set_nth (List.length l) y (map f l ++ x :: suf) = map f l ++ y :: suf.
Proof. intros. rewrite <- (map_length f l). apply set_nth_app. Qed.

Lemma map_snoc : forall (A B : Type) (f : A -> B) l x t, map f (l ++ [x]) ++ t = map f l ++ f x :: t.
Proof. intros. rewrite map_app, <- app_assoc. reflexivity. Qed.

Lemma NoDup_names_mid : forall (l : list ent) x l', NoDup (names (l ++ x :: l')) -> ~ In (e_name x) (names l).
Proof.
  unfold names. intros l x l' H K. rewrite map_app in H. apply NoDup_remove_2 in H. apply H, in_or_app. left. exact K.
Qed.

(* rd, cd: the entries in front of the ones a data line names; the reader's statuses at those positions are any
   images of them *)
Lemma apply_X : forall t (rd cd : list ent) r rs c cs (g f : ent -> DStatus) a Lrs b Lcs,
  (t = XU \/ t = XL) -> ~ In (e_name c) (names cd) -> ~ In (e_name r) (names rd) ->
  apply_rec (mkBlp (vars (rd ++ r :: rs)) (vars (cd ++ c :: cs))) (names (rd ++ r :: rs)) (names (cd ++ c :: cs))
            (mkDesc (map g rd ++ a :: Lrs) (map f cd ++ b :: Lcs)) (mkRec t (e_name c) (Some (e_name r)))
  = Some (mkDesc (map g rd ++ x_row_status t (rowType (e_var r)) :: Lrs) (map f cd ++ dualStatus (e_var c) :: Lcs)).
Proof.
  intros t rd cd r rs c cs g f a Lrs b Lcs Ht Hc Hr. unfold names, vars in *. rewrite !map_app. cbn [map].
  destruct Ht as [Ht|Ht]; subst t; unfold apply_rec; cbn [r_col r_tag r_row b_rows b_cols d_rows d_cols];
    rewrite (find_name_app _ _ _ Hc), (find_name_app _ _ _ Hr), !map_length, !nth_map_middle, !set_nth_map_middle;
    reflexivity.
Qed.

Lemma apply_UL : forall lp rnames (cd : list ent) c cs Lr (f : ent -> DStatus) b Lcs,
  ~ In (e_name c) (names cd) ->
  apply_rec lp rnames (names (cd ++ c :: cs)) (mkDesc Lr (map f cd ++ b :: Lcs)) (mkRec UL (e_name c) None)
  = Some (mkDesc Lr (map f cd ++ P_ON_UPPER :: Lcs)).
Proof.
  intros lp rnames cd c cs Lr f b Lcs Hc. unfold names in *. rewrite map_app. cbn [map].
  unfold apply_rec; cbn [r_col r_tag r_row d_rows d_cols].
  rewrite (find_name_app _ _ _ Hc), map_length, set_nth_map_middle. reflexivity.
Qed.

Lemma x_tag_cases : forall cpx v s, x_tag cpx v s = XU \/ x_tag cpx v s = XL.
Proof. intros. unfold x_tag. destruct (ds_eqb s P_ON_UPPER && (negb cpx || is_range v)); auto. Qed.

(* cdone, rdone: the columns the writer has passed and the rows its cursor has passed; at their positions the reader
   holds what it ends with, at the others its defaults *)
Lemma read_write_gen : forall cpx cols rows cdone rdone,
  NoDup (names (cdone ++ cols)) -> NoDup (names (rdone ++ rows)) ->
  count_primal (stats rows) = count_dual (stats cols) ->
  read_recs (mkBlp (vars (rdone ++ rows)) (vars (cdone ++ cols))) (names (rdone ++ rows)) (names (cdone ++ cols))
            (mkDesc (map (exp_row cpx) rdone ++ map dualStatus (vars rows)) (map exp_col cdone ++ map default_col (vars cols)))
            (wb cpx cols rows)
  = Some (mkDesc (map (exp_row cpx) (rdone ++ rows)) (map exp_col (cdone ++ cols))).
Proof.
  intros cpx cols. induction cols as [|c cols IH]; intros rows cdone rdone NDc NDr CNT.
  - cbn [wb read_recs]. apply all_dual_of_count in CNT.
    rewrite (map_app (exp_row cpx)), (map_exp_row_all_dual cpx rows CNT). cbn [vars map]. rewrite !app_nil_r. reflexivity.
  - assert (Hc : ~ In (e_name c) (names cdone)) by exact (NoDup_names_mid _ _ _ NDc).
    assert (Dc : count_dual (stats (c :: cols)) = (if is_dual (e_stat c) then 1 else 0) + count_dual (stats cols)).
    { unfold count_dual. cbn [stats map filter]. destruct (is_dual (e_stat c)); reflexivity. }
    rewrite Dc in CNT. cbn [wb]. change (vars (c :: cols)) with (e_var c :: vars cols). cbn [map].
    (* what the induction hypothesis says once c (and the rows up to the paired one) count as passed *)
    pose proof (fun rows' rd' => IH rows' (cdone ++ [c]) rd') as G.
    setoid_rewrite map_snoc in G. setoid_rewrite <- app_cons_snoc in G.
    unfold exp_col at 2, exp_col' in G.
    destruct (is_dual (e_stat c)) eqn:Ec; cbv iota in CNT, G.
    + (* basic column: paired with the next non-basic row *)
      destruct (skip_basic_split rows ltac:(lia)) as (rb & e & rows' & -> & Hrb & He & Hskip).
      rewrite Hskip. cbn [read_recs].
      unfold stats in CNT. rewrite map_app, count_primal_app in CNT. fold (stats rb) in CNT.
      rewrite (count_primal_all_dual rb Hrb) in CNT. unfold count_primal in CNT. cbn [map filter] in CNT.
      rewrite He in CNT. cbn [negb List.length] in CNT.
      specialize (G rows' ((rdone ++ rb) ++ [e])). rewrite map_snoc, <- app_cons_snoc, (exp_row_primal cpx e He) in G.
      unfold vars at 3. rewrite map_app, (map_app dualStatus). cbn [map]. fold (vars rb) (vars rows').
      rewrite <- (map_exp_row_all_dual cpx rb Hrb), !app_assoc, <- map_app in *.
      rewrite (apply_X (x_tag cpx (e_var e) (e_stat e)));
        [| apply x_tag_cases | exact Hc | exact (NoDup_names_mid _ _ _ NDr)].
      apply G; [exact NDc | exact NDr | unfold stats, count_primal in *; lia].
    + specialize (G rows rdone NDc NDr CNT).
      destruct (ds_eqb (e_stat c) P_ON_UPPER); [cbn [read_recs]; rewrite (apply_UL _ _ _ _ _ _ _ _ _ Hc)|]; exact G.
Qed.

Lemma entries_snd : forall ns vs ds, List.length ns = List.length vs -> List.length vs = List.length ds ->
  map snd (entries ns vs ds) = combine vs ds.
Proof. intros ns vs ds H1 H2. apply map_snd_combine. rewrite combine_length_eq by exact H2. exact H1. Qed.

Lemma entries_names : forall ns vs ds, List.length ns = List.length vs -> List.length vs = List.length ds ->
  names (entries ns vs ds) = ns.
Proof.
  intros ns vs ds H1 H2. unfold names, entries, e_name. apply map_fst_combine.
  rewrite combine_length_eq by exact H2. exact H1.
Qed.

Lemma entries_vars : forall ns vs ds, List.length ns = List.length vs -> List.length vs = List.length ds ->
  vars (entries ns vs ds) = vs.
Proof.
  intros ns vs ds H1 H2. transitivity (map fst (map snd (entries ns vs ds))); [rewrite map_map; reflexivity|].
  rewrite entries_snd by assumption. apply map_fst_combine, H2.
Qed.

Lemma entries_stats : forall ns vs ds, List.length ns = List.length vs -> List.length vs = List.length ds ->
  stats (entries ns vs ds) = ds.
Proof.
  intros ns vs ds H1 H2. transitivity (map snd (map snd (entries ns vs ds))); [rewrite map_map; reflexivity|].
  rewrite entries_snd by assumption. apply map_snd_combine, H2.
Qed.

Lemma repair_list_entries : forall (P : var -> DStatus -> bool) (g : var -> DStatus -> DStatus) ns vs ds,
  List.length ns = List.length vs -> List.length vs = List.length ds ->
  forallb (fun p => P (fst p) (snd p)) (combine vs ds) = true ->
  (forall v s, P v s = true -> repair v (g v s) = repair v s) ->
  repair_list vs (map (fun e => g (e_var e) (e_stat e)) (entries ns vs ds)) = repair_list vs ds.
Proof.
  intros P g ns vs ds H1 H2 HP HG.
  transitivity (repair_list vs (map (fun p => g (fst p) (snd p)) (map snd (entries ns vs ds))));
    [rewrite map_map; reflexivity|].
  rewrite entries_snd by assumption. unfold repair_list. rewrite combine_map_combine, map_map. apply (map_ext_forallb _ _ _ _ HP). intros [v s]. apply HG.
Qed.

Lemma loadDesc_ext : forall lp d1 d2,
  repair_list (b_rows lp) (d_rows d1) = repair_list (b_rows lp) (d_rows d2) ->
  repair_list (b_cols lp) (d_cols d1) = repair_list (b_cols lp) (d_cols d2) ->
  loadDesc lp d1 = loadDesc lp d2.
Proof. intros lp d1 d2 H1 H2. unfold loadDesc. rewrite H1, H2. reflexivity. Qed.

Lemma bas_roundtrip : forall lp d rn cn cpx,
  isDescValid lp d = true -> free_ok lp d = true ->
  NoDup rn -> NoDup cn -> List.length rn = nRows lp -> List.length cn = nCols lp ->
  readBasis lp rn cn (writeBasis lp d rn cn cpx) = Some (loadDesc lp d).
Proof.
  intros lp d rn cn cpx HV HF NDr NDc Lrn Lcn.
  pose proof (isDescValid_count lp d HV) as (Lr & Lc & _ & CNT).
  apply isDescValid_iff in HV as (_ & _ & V3 & V4 & _).
  unfold free_ok in HF. apply andb_true_iff in HF. destruct HF as [F1 F2].
  destruct lp as [R C]. unfold nRows, nCols in *. cbn [b_rows b_cols] in *.
  unfold readBasis, writeBasis, defaultDesc. cbn [b_rows b_cols].
  pose proof (read_write_gen cpx (entries cn C (d_cols d)) (entries rn R (d_rows d)) [] []) as G. cbn [map] in G. rewrite !app_nil_l in G.
  rewrite !entries_names, !entries_vars, !entries_stats in G by lia. rewrite G by assumption.
  cbn [option_map]. f_equal. apply loadDesc_ext; cbn [b_rows b_cols d_rows d_cols].
  - unfold exp_row.
    apply (repair_list_entries (fun v s => entry_valid v s && free_ok1 v s) (exp_row' cpx)); try lia.
    + apply forallb_and; assumption.
    + apply rt_row.
  - unfold exp_col.
    apply (repair_list_entries (fun v s => entry_valid v s && free_ok1 v s) exp_col'); try lia.
    + apply forallb_and; assumption.
    + apply rt_col.
Qed.

(* descriptors that went through loadDesc never carry an ambiguous P_FREE *)
Lemma free_ok1_repair : forall v s, free_ok1 v (repair v s) = true.
Proof. intros v s. unfold free_ok1, repair, dualStatus. entry_table v s. Qed.

Lemma free_ok1_dual : forall v, free_ok1 v (dualStatus v) = true.
Proof. intros v. rewrite <- repair_dualStatus. apply free_ok1_repair. Qed.

Lemma free_ok1_primal : forall v, free_ok1 v (primalStatus v) = true.
Proof. intros v. rewrite <- repair_primalStatus. apply free_ok1_repair. Qed.

Lemma free_ok_loadDesc : forall lp d, free_ok lp (loadDesc lp d) = true.
Proof.
  intros lp d. unfold loadDesc.
  destruct (Nat.eqb _ _); unfold free_ok; cbn [d_rows d_cols]; apply andb_true_iff; split.
  - unfold repair_list. apply (forallb_combine_map2 _ _ _ free_ok1 repair). apply free_ok1_repair.
  - unfold repair_list. apply (forallb_combine_map2 _ _ _ free_ok1 repair). apply free_ok1_repair.
  - apply (forallb_combine_map _ _ free_ok1 dualStatus). apply free_ok1_dual.
  - apply (forallb_combine_map _ _ free_ok1 primalStatus). apply free_ok1_primal.
Qed.

Lemma bas_roundtrip_loaded : forall lp ds rn cn cpx,
  List.length (d_rows ds) = nRows lp -> List.length (d_cols ds) = nCols lp ->
  NoDup rn -> NoDup cn -> List.length rn = nRows lp -> List.length cn = nCols lp ->
  readBasis lp rn cn (writeBasis lp (loadDesc lp ds) rn cn cpx) = Some (loadDesc lp ds).
Proof.
  intros lp ds rn cn cpx Hr Hc NDr NDc Lr Lc.
  rewrite (bas_roundtrip lp (loadDesc lp ds) rn cn cpx); try assumption.
  - rewrite loadDesc_idem. reflexivity.
  - apply loadDesc_valid; assumption.
  - apply free_ok_loadDesc.
Qed.

(* The writer for arrays outside the solver writes the same records *)

(* an entry as that writer receives it: the status as a VarStatus *)
Definition to_oent (e : ent) : oent := (e_name e, (e_var e, basisStatusToVarStatus (e_stat e))).

Lemma basic_iff_dual : forall s, vs_eqb (basisStatusToVarStatus s) BASIC = is_dual s.
Proof. destruct s; reflexivity. Qed.

Lemma upper_iff_upper : forall s, vs_eqb (basisStatusToVarStatus s) ON_UPPER = ds_eqb s P_ON_UPPER.
Proof. destruct s; reflexivity. Qed.

Lemma skip_basic_o_map : forall rows, skip_basic_o (map to_oent rows) = map to_oent (skip_basic rows).
Proof.
  induction rows as [|e rows IH]; cbn; [reflexivity|].
  rewrite basic_iff_dual. destruct (is_dual (e_stat e)); [exact IH | reflexivity].
Qed.

Lemma wbo_map : forall cpx cols rows, wbo cpx (map to_oent cols) (map to_oent rows) = wb cpx cols rows.
Proof.
  intros cpx cols. induction cols as [|c cols IH]; intros rows; cbn; [reflexivity|].
  rewrite basic_iff_dual, upper_iff_upper.
  destruct (is_dual (e_stat c)).
  - rewrite skip_basic_o_map. destruct (skip_basic rows) as [|r rows']; cbn; [reflexivity|].
    rewrite upper_iff_upper, IH. reflexivity.
  - destruct (ds_eqb (e_stat c) P_ON_UPPER); rewrite IH; reflexivity.
Qed.

Lemma combine_map_oent : forall ns vs ds,
  combine ns (combine vs (map basisStatusToVarStatus ds)) = map to_oent (entries ns vs ds).
Proof.
  unfold entries, to_oent, e_name, e_var, e_stat.
  induction ns as [|n ns IH]; intros vs ds; cbn; [reflexivity|].
  destruct vs as [|v vs]; destruct ds as [|s ds]; cbn; try reflexivity. rewrite IH. reflexivity.
Qed.

Lemma writeOutside_agrees : forall lp d rn cn cpx,
  writeBasisOutside lp (fst (getBasis d)) (snd (getBasis d)) rn cn cpx = writeBasis lp d rn cn cpx.
Proof.
  intros lp d rn cn cpx. unfold writeBasisOutside, writeBasis, getBasis; cbn [fst snd].
  rewrite !combine_map_oent. apply wbo_map.
Qed.

Lemma dec_inj : forall a b, dec a = dec b -> a = b.
Proof.
  intros a b H. unfold dec in H.
  assert (K : Some (Nat.to_uint a) = Some (Nat.to_uint b)).
  { rewrite <- (NilEmpty.usu (Nat.to_uint a)), <- (NilEmpty.usu (Nat.to_uint b)), H. reflexivity. }
  inversion K as [K']. rewrite <- (DecimalNat.Unsigned.of_to a), <- (DecimalNat.Unsigned.of_to b), K'. reflexivity.
Qed.

Lemma append_inj_l : forall p x y, (p ++ x)%string = (p ++ y)%string -> x = y.
Proof. induction p as [|c p IH]; intros x y H; cbn in H; [exact H|]. inversion H. apply IH. assumption. Qed.

Lemma dname_inj : forall p a b, dname p a = dname p b -> a = b.
Proof. intros p a b H. unfold dname in H. apply dec_inj. apply (append_inj_l p). exact H. Qed.

Lemma default_names_NoDup : forall p n, NoDup (default_names p n).
Proof.
  intros p n. unfold default_names. apply Injective_map_NoDup; [|apply seq_NoDup].
  intros a b H. apply (dname_inj p). exact H.
Qed.

Lemma default_names_length : forall p n, List.length (default_names p n) = n.
Proof. intros. unfold default_names. rewrite map_length, seq_length. reflexivity. Qed.

Lemma default_names_nth : forall p n k, k < n -> nth_error (default_names p n) k = Some (dname p k).
Proof.
  intros p n k H. unfold default_names. rewrite nth_error_map. rewrite nth_error_nth' with (d := 0) by (rewrite seq_length; exact H).
  rewrite seq_nth by exact H. reflexivity.
Qed.

(* names given by the user must be distinct and as many as there are rows / columns; default names are *)
Definition names_wf (u : option (list string)) (n : nat) : Prop :=
  match u with Some l => NoDup l /\ List.length l = n | None => True end.

Lemma names_or_default_ok : forall u p n, names_wf u n ->
  NoDup (names_or u (default_names p n)) /\ List.length (names_or u (default_names p n)) = n.
Proof.
  intros [l|] p n H; cbn in *; [exact H|]. split; [apply default_names_NoDup | apply default_names_length].
Qed.

(* file level: any mix of user and default names, both writers, the reader with the documented default names *)
Theorem file_roundtrip : forall lp d urn ucn cpx,
  isDescValid lp d = true -> free_ok lp d = true ->
  names_wf urn (nRows lp) -> names_wf ucn (nCols lp) ->
  readBasisFile_intended lp urn ucn (writeBasisFile lp d urn ucn cpx) = Some (loadDesc lp d) /\
  readBasisFile_intended lp urn ucn
    (writeBasisFileOutside lp (fst (getBasis d)) (snd (getBasis d)) urn ucn cpx) = Some (loadDesc lp d).
Proof.
  intros lp d urn ucn cpx HV HF Wr Wc.
  destruct (names_or_default_ok urn "C"%string _ Wr) as [NDr Lr].
  destruct (names_or_default_ok ucn "x"%string _ Wc) as [NDc Lc].
  unfold readBasisFile_intended, writeBasisFile, writeBasisFileOutside. split.
  - apply bas_roundtrip; assumption.
  - rewrite writeOutside_agrees. apply bas_roundtrip; assumption.
Qed.
