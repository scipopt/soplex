(* C13 - the lexers of LexersModel.v.  (a) The cursor machine of the settings-line parser computes SettingsLexer.tokenise and,
   with the repaired stepping rule, never reads behind the terminator.  (b) MPSInput::readLine terminates on every finite
   stream with the repaired stream test and hangs at end of input with the original one.  (c) The copy loops of the LP-format
   readers write behind their local array exactly when the token has the size of the array or more. *)
From Coq Require Import ZArith Bool List Arith Lia.
From SV Require Import SettingsLexer SettingsLexer_Proofs LexersModel.
Import ListNotations.
Local Open Scope Z_scope.

Definition nz (l : list Z) : Prop := Forall (fun c => c <> 0) l.

Lemma cstr_len l : (List.length (cstr l) <= List.length l)%nat.
Proof.
  induction l as [|c r IH]; cbn [cstr]; [lia|]. destruct (c =? 0); cbn [List.length]; lia.
Qed.

(* a buffer that holds the line and a NUL behind it is the C string of the line, the terminator, and whatever follows *)
Lemma cstr_split l tail : exists tail', l ++ 0 :: tail = cstr l ++ 0 :: tail'.
Proof.
  induction l as [|c r [tail' IH]]; cbn [cstr app].
  - exists tail. reflexivity.
  - destruct (c =? 0) eqn:E.
    + apply Z.eqb_eq in E. subst c. exists (r ++ 0 :: tail). reflexivity.
    + exists tail'. cbn [app]. now rewrite IH.
Qed.

Lemma cstr_app_nz t rest : nz t -> cstr (t ++ 0 :: rest) = t.
Proof. intros H. rewrite (cstr_app_nonul t _ H). apply app_nil_r. Qed.

(* what [span_tok] returns has no blank and no end-of-line character ([nz] adds: no NUL, inside a C string) *)
Definition clean_tok (t : list Z) : Prop := Forall (fun c => is_blank c = false /\ is_eol c = false) t.

Lemma tokenise_tokens line ty name val :
  tokenise line = TOk ty name val ->
  exists a b c d, cstr line = a ++ ty ++ b ++ name ++ c ++ val ++ d /\
                  clean_tok ty /\ clean_tok name /\ clean_tok val /\ nz ty /\ nz name /\ nz val.
Proof.
  intros H. destruct (tokenise_split _ _ _ _ H) as (a & b & c & d & E & C1 & C2 & C3 & _). exists a, b, c, d.
  pose proof (cstr_nonul line) as NZ. rewrite E, !Forall_app in NZ. unfold nz. tauto.
Qed.

Lemma tokens_len line ty name val :
  tokenise line = TOk ty name val ->
  (List.length ty + List.length name + List.length val <= List.length line)%nat.
Proof.
  intros H. apply tokenise_tokens in H. destruct H as (a & b & c & d & E & _).
  pose proof (cstr_len line) as L. rewrite E in L. rewrite !app_length in L. lia.
Qed.

Lemma blank_nz c : is_blank c = true -> c <> 0.
Proof. unfold is_blank. intros H ->. discriminate. Qed.

Lemma c_at_end_buf r tail : nz r -> c_at_end (r ++ 0 :: tail) = Ok (at_end r).
Proof.
  intros H. destruct H as [|c r0 Hc _]; cbn [app c_at_end at_end]; [reflexivity|].
  apply Z.eqb_neq in Hc. now rewrite Hc.
Qed.

(* The state of the cursor machine inside a line of [n] characters that is followed by its terminator and [tail]: the
   cursor is (r ++ 0 :: tail, i), where [r] is what is left of the line (so it has no NUL) and [i] counts what was
   consumed.  Every step below takes such a state to such a state and does on [r] what the tokeniser does. *)
Definition left_of (n : nat) (r : list Z) (i : nat) : Prop := nz r /\ (i + List.length r = n)%nat.

Lemma c_skipws_buf n r tail i : left_of n r i ->
  exists i', c_skipws (r ++ 0 :: tail) i = Ok (skipws r ++ 0 :: tail, i') /\ left_of n (skipws r) i'.
Proof.
  intros [H L]. revert i L. induction H as [|c r0 Hc H IH]; intros i L; cbn [app c_skipws skipws].
  - exists i. repeat split; [constructor | exact L].
  - destruct (is_blank c).
    + apply IH. cbn [List.length] in L. lia.
    + exists i. repeat split; [constructor; assumption | exact L].
Qed.

Lemma c_span_buf sep n r tail i : left_of n r i ->
  exists i', c_span sep (r ++ 0 :: tail) i = Ok (fst (span_tok sep r), (snd (span_tok sep r) ++ 0 :: tail, i')) /\
             left_of n (snd (span_tok sep r)) i'.
Proof.
  intros [H L]. revert i L. induction H as [|c r0 Hc H IH]; intros i L; cbn [app c_span span_tok].
  - exists i. repeat split; [constructor | exact L].
  - apply Z.eqb_neq in Hc. rewrite Hc, orb_false_r. destruct (is_blank c || is_eol c || (c =? sep)).
    + exists i. repeat split; [constructor; [apply Z.eqb_neq|]; assumption | exact L].
    + destruct (IH (S i)) as (i' & -> & A); [cbn [List.length] in L; lia|].
      exists i'. destruct (span_tok sep r0). split; [reflexivity | exact A].
Qed.

Lemma left_of_le n r i : left_of n r i -> (i <= n)%nat.
Proof. intros [_ L]. lia. Qed.

Lemma c_expect_sep_buf sep n r tail i : sep <> 0 -> left_of n r i ->
  exists i', c_expect_sep false sep (r ++ 0 :: tail, i) =
             Ok (option_map (fun r' => r' ++ 0 :: tail) (expect_sep sep r), i') /\
             match expect_sep sep r with Some r' => left_of n r' i' | None => (i' <= n)%nat end.
Proof.
  intros Hs [H L]. apply not_eq_sym, Z.eqb_neq in Hs. unfold c_expect_sep, expect_sep.
  destruct H as [|c r0 Hc Hr]; cbn [app List.length] in *.
  - rewrite Hs. cbn [orb negb fst snd c_skipws]. change (0 =? 0) with true. cbn [orb negb fst snd c_skipws]. change (is_blank 0) with false. cbn iota. rewrite Hs. exists i. split; [reflexivity | lia].
  - destruct (c =? sep).
    + exists (S i). repeat split; [exact Hr | lia].
    + apply Z.eqb_neq in Hc. rewrite Hc. cbn [orb negb fst snd].
      destruct (c_skipws_buf n r0 tail (S i)) as (i' & -> & [H' L']); [split; [exact Hr | lia]|].
      destruct H' as [|c' r1 _ Hr1]; cbn [app List.length] in *.
      * rewrite Hs. exists i'. split; [reflexivity | lia].
      * destruct (c' =? sep); [exists (S i'); repeat split; [exact Hr1 | lia] | exists i'; split; [reflexivity | lia]].
Qed.

(* On a NUL-terminated buffer the repaired cursor machine never reads out of bounds, returns exactly what [tokenise]
   returns, and its final cursor is not behind the terminator: the two machines run side by side through the three
   fields (skip blanks, end test, token, separator - the same steps each time), Ak being the state at step k. *)
Lemma c_parse_buf s tail : nz s ->
  exists i, c_parse false (s ++ 0 :: tail) = Ok (tokenise s, i) /\ (i <= List.length s)%nat.
Proof.
  intros NZ. unfold c_parse, tokenise. rewrite (cstr_id s NZ).
  assert (left_of (List.length s) s 0) as A by (split; [exact NZ | reflexivity]). set (n := List.length s) in *.
  destruct (c_skipws_buf n s tail 0 A) as (i0 & -> & A0). rewrite (c_at_end_buf _ tail (proj1 A0)).
  destruct (at_end (skipws s)). { exists i0. split; [reflexivity | exact (left_of_le _ _ _ A0)]. }
  destruct (c_span_buf 58 n _ tail i0 A0) as (i1 & -> & A1). destruct (span_tok 58 (skipws s)) as [ty r1]. cbn [fst snd] in *.
  destruct (c_expect_sep_buf 58 n r1 tail i1 ltac:(discriminate) A1) as (i2 & -> & A2).
  destruct (expect_sep 58 r1) as [r2|]; cbn [option_map]. 2: { exists i2. split; [reflexivity | exact A2]. }
  destruct (c_skipws_buf n r2 tail i2 A2) as (i3 & -> & A3). rewrite (c_at_end_buf _ tail (proj1 A3)).
  destruct (at_end (skipws r2)). { exists i3. split; [reflexivity | exact (left_of_le _ _ _ A3)]. }
  destruct (c_span_buf 61 n _ tail i3 A3) as (i4 & -> & A4). destruct (span_tok 61 (skipws r2)) as [name r3]. cbn [fst snd] in *.
  destruct (c_expect_sep_buf 61 n r3 tail i4 ltac:(discriminate) A4) as (i5 & -> & A5).
  destruct (expect_sep 61 r3) as [r4|]; cbn [option_map]. 2: { exists i5. split; [reflexivity | exact A5]. }
  destruct (c_skipws_buf n r4 tail i5 A5) as (i6 & -> & A6). rewrite (c_at_end_buf _ tail (proj1 A6)).
  destruct (at_end (skipws r4)). { exists i6. split; [reflexivity | exact (left_of_le _ _ _ A6)]. }
  destruct (c_span_buf (-1) n _ tail i6 A6) as (i7 & -> & [NZ7 L7]). destruct (span_tok (-1) (skipws r4)) as [val r5]. cbn [fst snd] in *.
  destruct NZ7 as [|c r6 Hc NZ8]; cbn [app List.length] in *. { exists i7. split; [reflexivity | lia]. }
  apply Z.eqb_neq in Hc. rewrite Hc.
  destruct (c_skipws_buf n r6 tail (S i7)) as (i8 & -> & A8); [split; [exact NZ8 | lia]|].
  rewrite (c_at_end_buf _ tail (proj1 A8)). exists i8. split; [reflexivity | exact (left_of_le _ _ _ A8)].
Qed.

(* whatever the buffer holds behind the terminator *)
Lemma cursor_in_bounds line tail :
  exists i, c_parse false (line ++ 0 :: tail) = Ok (tokenise line, i) /\ (i <= term_pos line)%nat.
Proof.
  destruct (cstr_split line tail) as [tail' E]. rewrite E.
  destruct (c_parse_buf (cstr line) tail' (cstr_nonul line)) as (i & P & B).
  exists i. rewrite <- tokenise_cstr in P. split; [exact P|exact B].
Qed.

Lemma scan_line_delim n l cs r : scan_line n l = (cs, r, HDelim) -> (List.length r < List.length l)%nat.
Proof.
  revert l cs r. induction n as [|n IH]; intros l cs r; destruct l as [|c l0]; cbn [scan_line]; try discriminate.
  - destruct (c =? 10); [|discriminate]. intros [= _ <-]. cbn [List.length]. lia.
  - destruct (c =? 10).
    + intros [= _ <-]. cbn [List.length]. lia.
    + destruct (scan_line n l0) as [[cs' r'] h'] eqn:E. intros [= _ <- ->].
      apply IH in E. cbn [List.length]. lia.
Qed.

(* a getline call that leaves failbit clear strictly decreases the measure *)
Lemma getline_decreases n st cs st' :
  getline n st = (cs, st') -> s_fail st' = false -> (stream_measure st' < stream_measure st)%nat.
Proof.
  unfold getline. destruct (s_eof st || s_fail st) eqn:F.
  - intros [= _ <-]. cbn [s_fail]. discriminate.
  - apply orb_false_iff in F. destruct F as [Fe Ff].
    destruct (scan_line n (s_rest st)) as [[cs' r] h] eqn:E. destruct h.
    + intros [= _ <-] _. apply scan_line_delim in E. unfold stream_measure. cbn [s_fail s_eof s_rest]. rewrite Fe, Ff. lia.
    + intros [= _ <-]. cbn [s_fail]. intros Hf. unfold stream_measure. cbn [s_fail s_eof s_rest]. rewrite Hf, Fe, Ff. lia.
    + intros [= _ <-]. cbn [s_fail]. discriminate.
Qed.

Lemma readLine_terminates_lemma fuel : forall st ps,
  (stream_measure st < fuel)%nat -> readLine true fuel st ps <> OutOfFuel.
Proof.
  induction fuel as [|fuel IH]; intros st ps M; [lia|].
  cbn [readLine]. destruct (getline BUFCAP st) as [cs st'] eqn:G.
  unfold gives_up. destruct (s_fail st') eqn:F; [discriminate|].
  pose proof (getline_decreases _ _ _ _ G F) as D.
  destruct (starts_star (cstr cs) || all_blank (cstr cs)).
  - apply IH. lia.
  - destruct (split_line _ (cstr cs)) as [[f ps''] marker]. destruct marker; [|discriminate].
    apply IH. lia.
Qed.

(* more fuel never changes a result that was reached *)
Lemma readLine_fuel_mono eofcheck fuel : forall st ps fuel',
  (fuel <= fuel')%nat -> readLine eofcheck fuel st ps <> OutOfFuel ->
  readLine eofcheck fuel' st ps = readLine eofcheck fuel st ps.
Proof.
  induction fuel as [|fuel IH]; intros st ps fuel' L H; [cbn in H; congruence|].
  destruct fuel' as [|fuel']; [lia|]. cbn [readLine] in *.
  destruct (getline BUFCAP st) as [cs st']. destruct (gives_up eofcheck st'); [reflexivity|].
  destruct (starts_star (cstr cs) || all_blank (cstr cs)).
  - apply IH; [lia|exact H].
  - destruct (split_line _ (cstr cs)) as [[f ps''] marker]. destruct marker; [|reflexivity].
    apply IH; [lia|exact H].
Qed.

(* the original condition: once eofbit is set every further getline fails without clearing it, stores an empty line, and
   the empty line counts as a comment *)
Lemma readLine_hangs_at_eof fuel : forall st ps, s_eof st = true -> readLine false fuel st ps = OutOfFuel.
Proof.
  induction fuel as [|fuel IH]; intros [rest e f] ps He; [reflexivity|]. cbn [s_eof] in He. subst e.
  cbn [readLine getline s_eof s_fail s_rest orb]. cbn [gives_up s_eof s_fail orb negb andb cstr starts_star all_blank forallb].
  apply IH. reflexivity.
Qed.

Lemma readLine_refuted_lemma : forall fuel ps, readLine false fuel (fresh_stream []) ps = OutOfFuel.
Proof.
  intros [|fuel] ps; [reflexivity|].
  unfold fresh_stream. cbn [readLine getline s_eof s_fail s_rest orb scan_line BUFCAP].
  cbn [gives_up s_eof s_fail orb negb andb cstr starts_star all_blank forallb].
  apply readLine_hangs_at_eof. reflexivity.
Qed.

Lemma copy_loop_none_iff cap tok : forall buf i,
  copy_loop cap buf i tok = None <-> (cap <= i + List.length tok)%nat.
Proof.
  induction tok as [|c r IH]; intros buf i; cbn [copy_loop List.length]; unfold write;
    destruct (Nat.ltb_spec i cap) as [E|E].
  - split; [discriminate|lia].
  - split; [lia|reflexivity].
  - rewrite IH. lia.
  - split; [lia|reflexivity].
Qed.

(* what stands before the write index is kept, whatever the array held from there on *)
Lemma copy_loop_content cap tok : forall pre post,
  (List.length pre + List.length tok < cap)%nat ->
  exists rest, copy_loop cap (pre ++ post) (List.length pre) tok = Some (pre ++ tok ++ 0 :: rest).
Proof.
  induction tok as [|c r IH]; intros pre post L; cbn [copy_loop List.length] in *; unfold write;
    rewrite (proj2 (Nat.ltb_lt _ _)) by lia; rewrite firstn_app, firstn_all, Nat.sub_diag; cbn [firstn]; rewrite app_nil_r.
  - eexists. reflexivity.
  - destruct (IH (pre ++ [c]) (skipn (S (List.length pre)) (pre ++ post))) as [rest E]; [rewrite app_length; cbn [List.length]; lia|].
    exists rest. rewrite app_length, Nat.add_1_r, <- !app_assoc in E. exact E.
Qed.

(* when the token fits, the array holds exactly the token as a C string, whatever it held before *)
Lemma copy_loop_cstr cap buf tok : nz tok -> (List.length tok < cap)%nat ->
  exists arr, copy_loop cap buf 0 tok = Some arr /\ cstr arr = tok.
Proof.
  intros N L. destruct (copy_loop_content cap tok [] buf L) as [rest E].
  eexists. split; [exact E|]. now apply cstr_app_nz.
Qed.

Lemma span_digits_app l : l = fst (span_digits l) ++ snd (span_digits l).
Proof.
  induction l as [|c r IH]; cbn [span_digits]; [reflexivity|].
  destruct (is_dig c); [|reflexivity]. destruct (span_digits r) as [d rest]. cbn [fst snd app] in *. now rewrite <- IH.
Qed.

Lemma opt_char_app p l : l = fst (opt_char p l) ++ snd (opt_char p l).
Proof. unfold opt_char. destruct l as [|c r]; [reflexivity|]. destruct (p c); reflexivity. Qed.

(* the arm of [scan_value] for an optional part that is taken (the character [c], then digits) splits [c :: r] *)
Lemma digits_behind c r :
  c :: r = fst (let (d, r') := span_digits r in (c :: d, r')) ++ snd (let (d, r') := span_digits r in (c :: d, r')).
Proof. pose proof (span_digits_app r) as E. destruct (span_digits r) as [d r']. cbn [fst snd app] in *. now rewrite <- E. Qed.

(* every part of the scan splits what is left into what it takes and the rest.  A part that starts with a fixed character is
   a match on the code of that character: its first six bits decide every case but the character itself. *)
Lemma scan_value_app rational l : l = fst (fst (scan_value rational l)) ++ snd (fst (scan_value rational l)).
Proof.
  unfold scan_value.
  pose proof (opt_char_app is_sign l) as E0. destruct (opt_char is_sign l) as [sg l1]. cbn [fst snd] in E0.
  pose proof (span_digits_app l1) as E1. destruct (span_digits l1) as [d1 l2]. cbn [fst snd] in E1.
  match goal with |- context [match ?M with (_, _) => _ end] =>
    assert (E2 : l2 = fst M ++ snd M); [|destruct M as [frac l3]; cbn [fst snd] in E2] end.
  { destruct l2 as [|[|p|p] r]; try reflexivity. do 6 (destruct p; try reflexivity). apply digits_behind. }
  match goal with |- context [match ?M with (_, _) => _ end] =>
    assert (E3 : l3 = fst M ++ snd M); [|destruct M as [ex l4]; cbn [fst snd] in E3] end.
  { destruct l3 as [|c r]; [reflexivity|]. destruct (is_e c); [|reflexivity].
    pose proof (opt_char_app is_sign r) as Ea. destruct (opt_char is_sign r) as [sg2 r1]. cbn [fst snd] in Ea.
    pose proof (span_digits_app r1) as Eb. destruct (span_digits r1) as [d3 r2]. cbn [fst snd app] in *.
    rewrite <- app_assoc, <- Eb, <- Ea. reflexivity. }
  match goal with |- context [match ?M with (_, _) => _ end] =>
    assert (E4 : l4 = fst M ++ snd M); [|destruct M as [dv l5]; cbn [fst snd] in E4] end.
  { destruct rational; [|reflexivity].
    destruct l4 as [|[|p|p] r]; try reflexivity. do 6 (destruct p; try reflexivity). apply digits_behind. }
  cbn [fst snd]. rewrite E0, E1, E2, E3, E4. now rewrite <- !app_assoc.
Qed.

Lemma scan_value_len rational l :
  (List.length (fst (fst (scan_value rational l))) <= List.length l)%nat.
Proof. rewrite (scan_value_app rational l) at 2. rewrite app_length. lia. Qed.

Lemma span_name_app l : l = fst (span_name l) ++ snd (span_name l).
Proof.
  induction l as [|c r IH]; cbn [span_name]; [reflexivity|].
  destruct (ends_name c); [reflexivity|]. destruct (span_name r) as [t rest]. cbn [fst snd app] in *. now rewrite <- IH.
Qed.

Lemma sub_len l a b : (List.length (sub l a b) <= List.length l)%nat.
Proof. unfold sub. rewrite firstn_length, skipn_length. lia. Qed.

(* all three readers copy their token into the local array in the same way *)
Lemma copy_overflow_iff {A} cap buf tok (f : list Z -> A) :
  match copy_loop cap buf 0 tok with None => Overflow | Some arr => Done (f arr) end = Overflow <->
  (cap <= List.length tok)%nat.
Proof. rewrite <- (copy_loop_none_iff cap tok buf 0). destruct (copy_loop cap buf 0 tok); split; congruence. Qed.

Lemma lpf_read_value_overflow_iff cap rational l :
  lpf_read_value cap rational l = Overflow <->
  snd (scan_value rational l) = true /\ (cap <= List.length (fst (fst (scan_value rational l))))%nat.
Proof.
  unfold lpf_read_value. destruct (scan_value rational l) as [[tok rest] [|]]; cbn [fst snd].
  - rewrite copy_overflow_iff. intuition.
  - split; [discriminate | intros [H _]; discriminate].
Qed.

Lemma lpf_read_colname_overflow_iff cap l :
  lpf_read_colname cap l = Overflow <-> (cap <= List.length (fst (span_name l)))%nat.
Proof. unfold lpf_read_colname. destruct (span_name l) as [tok rest]. apply copy_overflow_iff. Qed.

(* Lines that reach the end of the local array: a run of one character as long as the array (a numeric literal of
   ones, a name of x's, a row name of r's before its colon). *)
Lemma span_digits_run n : span_digits (repeat 49 n) = (repeat 49 n, []).
Proof. induction n as [|n IH]; cbn [repeat span_digits]; [reflexivity|]. rewrite IH. reflexivity. Qed.

Lemma span_name_run n : span_name (repeat 120 n) = (repeat 120 n, []).
Proof. induction n as [|n IH]; cbn [repeat span_name]; [reflexivity|]. rewrite IH. reflexivity. Qed.

Lemma scan_value_run rational n : scan_value rational (repeat 49 (S n)) = (repeat 49 (S n), [], true).
Proof.
  unfold scan_value. cbn [repeat opt_char].
  change (is_sign 49) with false. cbn iota. cbn [span_digits]. change (is_dig 49) with true. cbn iota.
  rewrite span_digits_run. destruct rational; cbn [app]; rewrite app_nil_r; reflexivity.
Qed.

Lemma lpf_read_value_run cap rational n : (cap <= S n)%nat ->
  lpf_read_value cap rational (repeat 49 (S n)) = Overflow.
Proof.
  intros H. apply lpf_read_value_overflow_iff. rewrite scan_value_run. cbn [fst snd].
  rewrite repeat_length. auto.
Qed.

Lemma lpf_read_colname_run cap n : (cap <= n)%nat -> lpf_read_colname cap (repeat 120 n) = Overflow.
Proof.
  intros H. apply lpf_read_colname_overflow_iff. rewrite span_name_run. cbn [fst]. rewrite repeat_length. exact H.
Qed.

Lemma find_colon_run c n : forall k, (c =? 58) = false -> find_colon (repeat c n ++ [58]) k = Some (k + n)%nat.
Proof.
  induction n as [|n IH]; intros k Hc; cbn [repeat app find_colon].
  - rewrite Z.eqb_refl, Nat.add_0_r. reflexivity.
  - rewrite Hc, IH, Nat.add_succ_comm by exact Hc. reflexivity.
Qed.

Lemma nthz_run c m r k : (k < m)%nat -> nthz (repeat c m ++ r) k = c.
Proof.
  intros H. unfold nthz. rewrite app_nth1 by (rewrite repeat_length; exact H).
  rewrite (nth_indep _ 0 c) by (rewrite repeat_length; exact H). apply nth_repeat.
Qed.

Lemma scan_down_none p l : forall e, (forall k, (k <= e)%nat -> p (nthz l k) = false) -> scan_down p l e = None.
Proof.
  induction e as [|e IH]; intros H; cbn [scan_down]; rewrite H by lia; [reflexivity|].
  apply IH. intros k Hk. apply H. lia.
Qed.

Lemma sub_run c n r : sub (repeat c (S n) ++ r) 0 n = repeat c (S n).
Proof.
  unfold sub. rewrite Nat.sub_0_r. cbn [skipn].
  rewrite firstn_app, repeat_length, Nat.sub_diag, firstn_all2, app_nil_r by (rewrite repeat_length; lia). reflexivity.
Qed.

(* the name starts at index 0 because no blank precedes it, so the whole run is copied *)
Lemma lpf_has_rowname_run cap n : (cap <= S n)%nat -> lpf_has_rowname cap (repeat 114 (S n) ++ [58]) = Overflow.
Proof.
  intros H. unfold lpf_has_rowname. rewrite find_colon_run by reflexivity. cbn [Nat.add].
  assert (forall k, (k <= n)%nat -> nthz (repeat 114 (S n) ++ [58]) k = 114) as Hrun by (intros k Hk; apply nthz_run; lia).
  replace (scan_down (fun c => negb (c =? 32)) (repeat 114 (S n) ++ [58]) n) with (Some n)
    by (destruct n; cbn [scan_down]; rewrite Hrun by lia; reflexivity).
  replace (match n with O => 0%nat | S e' => _ end) with 0%nat
    by (destruct n; [|rewrite scan_down_none by (intros k Hk; rewrite Hrun by lia; reflexivity)]; reflexivity).
  rewrite sub_run. apply copy_overflow_iff. rewrite repeat_length. exact H.
Qed.

(* every line shorter than the array is safe, for all three functions *)
Lemma lpf_short_lines_safe cap rational l : (List.length l < cap)%nat ->
  lpf_read_value cap rational l <> Overflow /\ lpf_read_colname cap l <> Overflow /\ lpf_has_rowname cap l <> Overflow.
Proof.
  intros L. split; [|split].
  - rewrite lpf_read_value_overflow_iff. intros [_ H]. pose proof (scan_value_len rational l). lia.
  - rewrite lpf_read_colname_overflow_iff. intros H.
    pose proof (span_name_app l) as E. apply (f_equal (@List.length Z)) in E. rewrite app_length in E. lia.
  - unfold lpf_has_rowname. destruct (find_colon l 0) as [[|d']|]; try discriminate.
    destruct (scan_down _ l d') as [e|]; [|discriminate].
    rewrite copy_overflow_iff. match goal with |- ~ (_ <= List.length (sub ?l' ?a ?b))%nat => pose proof (sub_len l' a b) end. lia.
Qed.
