(* C19 - lemmas about the executable model SparseVecModel.v (sparse / dense / semi-sparse vectors over Q): every
   operation described by the value it leaves at each position (dv_get / sv_get), the well-formedness predicates
   (no duplicate index, indices in range, ss_ok for the index list of a semi-sparse vector) it keeps, the scalar
   products as sums over the dense expansions, the product of a dense vector with a list of sparse rows as the sum
   rows_sum (rows_tmul_get), and two Examples in which multAdd does not keep ss_ok. *)
From Coq Require Import List ZArith QArith Qabs Bool Arith Lia Lqa Permutation Sorted Setoid Morphisms.
From SV Require Import ListAux SparseVecModel.
Import ListNotations.
Local Open Scope Q_scope.

Definition dv_eq (a b : dvec) : Prop := Forall2 Qeq a b.
Definition sv_nodup (v : svec) : Prop := NoDup (sv_indices v).
Definition sv_in_dim (n : nat) (v : svec) : Prop := Forall (fun e => (fst e < n)%nat) v.
Definition sv_sorted (v : svec) : Prop := StronglySorted lt (sv_indices v).
Definition sv_nonzero (v : svec) : Prop := Forall (fun e => ~ snd e == 0) v.

Notation memb i l := (existsb (Nat.eqb i) l).

Lemma qzero_true x : qzero x = true <-> x == 0.
Proof. unfold qzero. apply Qeq_bool_iff. Qed.

Lemma bool_false_iff (b : bool) (P : Prop) : (b = true <-> P) -> (b = false <-> ~ P).
Proof.
  intros [H1 H2]. destruct b; split; intros H.
  - discriminate.
  - exfalso. apply H. apply H1. reflexivity.
  - intros C. apply H2 in C. discriminate.
  - reflexivity.
Qed.

Lemma qzero_false x : qzero x = false <-> ~ x == 0.
Proof. apply bool_false_iff. apply qzero_true. Qed.

Lemma qle_true x y : qle_bool x y = true <-> x <= y.
Proof. unfold qle_bool. apply Qle_bool_iff. Qed.

Lemma qle_false x y : qle_bool x y = false <-> ~ x <= y.
Proof. apply bool_false_iff. apply qle_true. Qed.

Lemma memb_In i l : memb i l = true <-> In i l.
Proof.
  rewrite existsb_exists. split.
  - intros [x [Hx He]]. apply Nat.eqb_eq in He. subst. exact Hx.
  - intros H. exists i. split; [exact H | apply Nat.eqb_refl].
Qed.

Lemma memb_notIn i l : memb i l = false <-> ~ In i l.
Proof. apply bool_false_iff. apply memb_In. Qed.

Lemma memb_spec i l : reflect (In i l) (memb i l).
Proof. apply iff_reflect. symmetry. apply memb_In. Qed.

Lemma dv_get_nil i : dv_get [] i = 0.
Proof. destruct i; reflexivity. Qed.

Lemma dv_get_cons_0 y r : dv_get (y :: r) 0 = y.
Proof. reflexivity. Qed.

Lemma dv_get_cons_S y r k : dv_get (y :: r) (S k) = dv_get r k.
Proof. reflexivity. Qed.

Lemma dv_get_overflow d i : (length d <= i)%nat -> dv_get d i = 0.
Proof. intros H. unfold dv_get. apply nth_overflow. exact H. Qed.

Lemma dv_get_nz_lt d i : ~ dv_get d i == 0 -> (i < length d)%nat.
Proof.
  intros H. destruct (Nat.lt_ge_cases i (length d)) as [Hl|Hl]; [exact Hl|].
  destruct H. rewrite dv_get_overflow by exact Hl. reflexivity.
Qed.

Lemma dv_set_length d : forall i x, length (dv_set d i x) = length d.
Proof. exact (set_nth_length Q d). Qed.

Lemma dv_set_oob d : forall i x, (length d <= i)%nat -> dv_set d i x = d.
Proof. exact (set_nth_oob Q d). Qed.

Lemma dv_set_same d : forall i, dv_set d i (dv_get d i) = d.
Proof. induction d as [|y r IH]; intros [|i]; cbn [dv_set]; try reflexivity. rewrite dv_get_cons_S, IH. reflexivity. Qed.

Lemma dv_get_set_same d i x : (i < length d)%nat -> dv_get (dv_set d i x) i = x.
Proof. exact (nth_set_nth_eq Q 0 d i x). Qed.

Lemma dv_get_set_other d i x j : i <> j -> dv_get (dv_set d i x) j = dv_get d j.
Proof. exact (nth_set_nth_neq Q 0 d i j x). Qed.

Lemma dv_get_set d : forall i x j, (i < length d)%nat ->
  dv_get (dv_set d i x) j = if Nat.eqb i j then x else dv_get d j.
Proof.
  intros i x j Hi. destruct (Nat.eqb_spec i j) as [<-|E]; [apply dv_get_set_same; exact Hi | apply dv_get_set_other; exact E].
Qed.

Lemma dv_get_set0 d i j : dv_get (dv_set d i 0) j = if Nat.eqb i j then 0 else dv_get d j.
Proof.
  destruct (Nat.lt_ge_cases i (length d)) as [H|H]; [apply dv_get_set; exact H | rewrite dv_set_oob by exact H].
  destruct (Nat.eqb_spec i j) as [<-|E]; [apply dv_get_overflow; exact H | reflexivity].
Qed.

Lemma dv_upd_length d i f : length (dv_upd d i f) = length d.
Proof. unfold dv_upd. apply dv_set_length. Qed.

Lemma dv_get_upd d i f j : (i < length d)%nat ->
  dv_get (dv_upd d i f) j = if Nat.eqb i j then f (dv_get d i) else dv_get d j.
Proof. intros H. unfold dv_upd. apply dv_get_set. exact H. Qed.

Lemma dv_zero_length n : length (dv_zero n) = n.
Proof. unfold dv_zero. apply repeat_length. Qed.

Lemma dv_get_zero n i : dv_get (dv_zero n) i = 0.
Proof.
  unfold dv_zero, dv_get. revert i. induction n as [|n IH]; intros [|i]; cbn; auto.
Qed.

Lemma dv_clear_length d : length (dv_clear d) = length d.
Proof. unfold dv_clear. apply map_length. Qed.

Lemma dv_get_clear d i : dv_get (dv_clear d) i = 0.
Proof.
  unfold dv_clear, dv_get. revert i. induction d as [|y r IH]; intros [|i]; cbn; auto.
Qed.

Lemma dv_map_get (f : Q -> Q) d : f 0 == 0 -> forall i, dv_get (map f d) i == f (dv_get d i).
Proof.
  intros H0. unfold dv_get. induction d as [|y r IH]; intros [|i]; cbn [map nth]; try reflexivity;
    [symmetry; exact H0 | symmetry; exact H0 | apply IH].
Qed.

Lemma dv_eq_refl a : dv_eq a a.
Proof. induction a; constructor; [reflexivity | assumption]. Qed.

Lemma dv_eq_sym a b : dv_eq a b -> dv_eq b a.
Proof. induction 1; constructor; [symmetry; assumption | assumption]. Qed.

Lemma dv_eq_trans a b c : dv_eq a b -> dv_eq b c -> dv_eq a c.
Proof.
  intros H. revert c. induction H as [|x y a b Hxy Hab IH]; intros c Hc; inversion Hc; subst; constructor.
  - rewrite Hxy. assumption.
  - apply IH. assumption.
Qed.

Global Instance dv_eq_Equivalence : Equivalence dv_eq.
Proof. split; [exact dv_eq_refl | exact dv_eq_sym | exact dv_eq_trans]. Qed.

Lemma dv_eq_length a b : dv_eq a b -> length a = length b.
Proof. induction 1; cbn; auto. Qed.

Lemma dv_eq_get a b : dv_eq a b -> forall i, dv_get a i == dv_get b i.
Proof.
  induction 1 as [|x y a b Hxy Hab IH]; intros i.
  - reflexivity.
  - destruct i as [|k]; [exact Hxy | rewrite !dv_get_cons_S; apply IH].
Qed.

Lemma dv_eq_of_get : forall a b, length a = length b ->
  (forall i, (i < length a)%nat -> dv_get a i == dv_get b i) -> dv_eq a b.
Proof.
  induction a as [|x a IH]; intros [|y b] Hl H; cbn in Hl; try discriminate; constructor.
  - apply (H 0%nat). cbn. lia.
  - apply IH; [lia|]. intros i Hi. apply (H (S i)). cbn. lia.
Qed.

Lemma dv_eq_map {A} (f g : A -> Q) l : (forall a, In a l -> f a == g a) -> dv_eq (map f l) (map g l).
Proof. apply Forall2_map_ext_in. Qed.

Lemma sv_get_notin v i : ~ In i (sv_indices v) -> sv_get v i = 0.
Proof.
  induction v as [|[j x] r IH]; cbn; intros H; [reflexivity|].
  destruct (Nat.eqb_spec j i) as [E|E].
  - exfalso. apply H. left. exact E.
  - apply IH. intros C. apply H. right. exact C.
Qed.

Lemma sv_get_app u v i :
  sv_get (u ++ v) i = if memb i (sv_indices u) then sv_get u i else sv_get v i.
Proof.
  induction u as [|[j x] r IH]; cbn; [reflexivity|].
  rewrite (Nat.eqb_sym i j). destruct (Nat.eqb j i); cbn; [reflexivity | exact IH].
Qed.

Lemma sv_get_in v i x : sv_nodup v -> In (i, x) v -> sv_get v i = x.
Proof.
  unfold sv_nodup. induction v as [|[j y] r IH]; cbn; intros Hnd Hin; [contradiction|].
  inversion Hnd as [|? ? Hnotin Hnd']; subst.
  destruct Hin as [E|Hin].
  - inversion E; subst. rewrite Nat.eqb_refl. reflexivity.
  - destruct (Nat.eqb_spec j i) as [E|E].
    + subst. exfalso. apply Hnotin. apply (in_map fst) in Hin. exact Hin.
    + apply IH; assumption.
Qed.

Lemma sv_get_In_pair v i : In i (sv_indices v) -> In (i, sv_get v i) v.
Proof.
  induction v as [|[j x] r IH]; [intros []|].
  change (sv_indices ((j, x) :: r)) with (j :: sv_indices r). cbn [sv_get]. intros H.
  destruct (Nat.eqb_spec j i) as [E|E]; [subst; left; reflexivity|].
  right. apply IH. destruct H as [H|H]; [contradiction | exact H].
Qed.

Lemma sv_get_perm u v i : Permutation u v -> sv_nodup u -> sv_get u i = sv_get v i.
Proof.
  unfold sv_nodup. induction 1 as [|[j x] u v Huv IH|[j x] [k y] l|u v w Huv IH1 Hvw IH2]; intros Hnd.
  - reflexivity.
  - cbn. inversion Hnd; subst. destruct (Nat.eqb j i); [reflexivity | apply IH; assumption].
  - cbn. cbn in Hnd. inversion Hnd as [|? ? Hnotin _]; subst.
    destruct (Nat.eqb_spec j i) as [E1|E1], (Nat.eqb_spec k i) as [E2|E2]; try reflexivity.
    exfalso. apply Hnotin. left. congruence.
  - rewrite IH1 by exact Hnd. apply IH2.
    apply (Permutation_NoDup (l := sv_indices u)); [|exact Hnd].
    unfold sv_indices. apply Permutation_map. exact Huv.
Qed.

Lemma sv_nodup_perm u v : Permutation u v -> sv_nodup u -> sv_nodup v.
Proof.
  unfold sv_nodup, sv_indices. intros Hp Hnd.
  apply (Permutation_NoDup (l := map fst u)); [apply Permutation_map; exact Hp | exact Hnd].
Qed.

Lemma expand_length n v : length (expand n v) = n.
Proof. unfold expand. rewrite map_length, seq_length. reflexivity. Qed.

Lemma expand_get n v i : dv_get (expand n v) i = if Nat.ltb i n then sv_get v i else 0.
Proof.
  unfold expand, dv_get. destruct (Nat.ltb_spec i n) as [H|H]; [apply nth_map_seq; exact H|].
  apply nth_overflow. rewrite map_length, seq_length. lia.
Qed.

Lemma expand_eq n v d : length d = n -> (forall i, (i < n)%nat -> sv_get v i == dv_get d i) -> dv_eq (expand n v) d.
Proof.
  intros Hl H. apply dv_eq_of_get; [rewrite expand_length; symmetry; exact Hl|]. intros i Hi. rewrite expand_length in Hi.
  rewrite expand_get, (proj2 (Nat.ltb_lt i n) Hi). apply H, Hi.
Qed.

Lemma sv_scale_get : forall a v i, sv_get (sv_scale a v) i == sv_get v i * a.
Proof.
  intros a v i. induction v as [|[j x] r IH]; cbn.
  - ring.
  - destruct (Nat.eqb j i); [reflexivity | exact IH].
Qed.

Lemma sv_scale_indices a v : sv_indices (sv_scale a v) = sv_indices v.
Proof. unfold sv_indices, sv_scale. rewrite map_map. reflexivity. Qed.

Lemma expand_scale : forall n a v, dv_eq (expand n (sv_scale a v)) (dv_scale a (expand n v)).
Proof.
  intros n a v. unfold expand, dv_scale. rewrite map_map. apply dv_eq_map.
  intros i _. apply sv_scale_get.
Qed.

Lemma sv_add_get : forall j x v i, ~ In j (sv_indices v) ->
  sv_get (sv_add j x v) i == (if Nat.eqb j i then x else sv_get v i).
Proof.
  intros j x v i Hj. unfold sv_add. destruct (qzero x) eqn:Hz.
  - destruct (Nat.eqb_spec j i) as [E|E]; [|reflexivity].
    subst. rewrite sv_get_notin by exact Hj. apply qzero_true in Hz. symmetry. exact Hz.
  - rewrite sv_get_app. destruct (memb_spec i (sv_indices v)) as [Hm|Hm].
    + destruct (Nat.eqb_spec j i) as [E|E]; [subst; contradiction | reflexivity].
    + cbn. destruct (Nat.eqb j i) eqn:E; [reflexivity|]. rewrite sv_get_notin by exact Hm. reflexivity.
Qed.

Lemma sv_add_indices j x v :
  sv_indices (sv_add j x v) = if qzero x then sv_indices v else sv_indices v ++ [j].
Proof.
  unfold sv_add. destruct (qzero x); [reflexivity|]. unfold sv_indices. rewrite map_app. reflexivity.
Qed.

Lemma sv_add_nodup : forall j x v, ~ In j (sv_indices v) -> sv_nodup v -> sv_nodup (sv_add j x v).
Proof.
  intros j x v Hj Hnd. unfold sv_nodup. rewrite sv_add_indices.
  destruct (qzero x); [exact Hnd | apply NoDup_snoc; assumption].
Qed.

Lemma sv_add_in_dim n j x v : (j < n)%nat -> sv_in_dim n v -> sv_in_dim n (sv_add j x v).
Proof.
  intros Hj Hv. unfold sv_add. destruct (qzero x); [exact Hv|].
  apply Forall_app. split; [exact Hv | constructor; [exact Hj | constructor]].
Qed.

Lemma sv_add_nonzero j x v : sv_nonzero v -> sv_nonzero (sv_add j x v).
Proof.
  intros Hv. unfold sv_add. destruct (qzero x) eqn:Hz; [exact Hv|].
  apply Forall_app. split; [exact Hv|]. constructor; [|constructor]. apply qzero_false. exact Hz.
Qed.

Lemma sv_filter_indices_in f (v : svec) i : In i (sv_indices (filter f v)) -> In i (sv_indices v).
Proof.
  unfold sv_indices. rewrite !in_map_iff. intros [e [He Hin]]. exists e. split; [exact He|].
  apply filter_In in Hin. tauto.
Qed.

Lemma sv_filter_indices_iff f v k : sv_nodup v ->
  In k (sv_indices (filter f v)) <-> In k (sv_indices v) /\ f (k, sv_get v k) = true.
Proof.
  intros Hnd. unfold sv_indices at 1. rewrite in_map_iff. split.
  - intros ([j y] & E & H). cbn [fst] in E. subst j. apply filter_In in H. destruct H as [H Hf].
    rewrite (sv_get_in v k y Hnd H). split; [apply (in_map fst _ _ H) | exact Hf].
  - intros [H Hf]. exists (k, sv_get v k). split; [reflexivity|]. apply filter_In. split; [apply sv_get_In_pair, H | exact Hf].
Qed.

Lemma sv_filter_nodup f (v : svec) : sv_nodup v -> sv_nodup (filter f v).
Proof.
  unfold sv_nodup. induction v as [|e r IH]; cbn; intros Hnd; [constructor|].
  inversion Hnd as [|? ? Hnotin Hnd']; subst.
  destruct (f e); [|apply IH; exact Hnd'].
  cbn. constructor; [|apply IH; exact Hnd'].
  intros C. apply Hnotin. apply (sv_filter_indices_in f). exact C.
Qed.

Lemma sv_filter_in_dim f n (v : svec) : sv_in_dim n v -> sv_in_dim n (filter f v).
Proof.
  unfold sv_in_dim. rewrite !Forall_forall. intros H e He. apply filter_In in He. apply H. tauto.
Qed.

Lemma sv_in_dim_iff n v : sv_in_dim n v <-> Forall (fun i => (i < n)%nat) (sv_indices v).
Proof. symmetry. apply Forall_map. Qed.

Lemma sv_assign_get : forall v i, sv_nodup v -> sv_get (sv_assign v) i == sv_get v i.
Proof.
  intros v i. unfold sv_nodup, sv_assign. induction v as [|[j x] r IH]; intros Hnd; [reflexivity|].
  inversion Hnd as [|? ? Hnotin Hnd']; subst.
  cbn [filter snd]. destruct (qzero x) eqn:Hz; cbn [negb sv_get].
  - destruct (Nat.eqb_spec j i) as [E|E]; [|apply IH; exact Hnd'].
    subst. apply qzero_true in Hz. rewrite Hz. rewrite sv_get_notin; [reflexivity|].
    intros C. apply Hnotin. apply sv_filter_indices_in in C. exact C.
  - destruct (Nat.eqb j i); [reflexivity | apply IH; exact Hnd'].
Qed.

Lemma sv_assign_nodup : forall v, sv_nodup v -> sv_nodup (sv_assign v).
Proof. intros v. unfold sv_assign. apply sv_filter_nodup. Qed.

Lemma sv_assign_in_dim : forall n v, sv_in_dim n v -> sv_in_dim n (sv_assign v).
Proof. intros n v. unfold sv_assign. apply sv_filter_in_dim. Qed.

Lemma sv_assign_nonzero : forall v, sv_nonzero (sv_assign v).
Proof.
  intros v. unfold sv_nonzero, sv_assign. apply Forall_forall. intros e He.
  apply filter_In in He. destruct He as [_ He]. apply negb_true_iff in He. apply qzero_false. exact He.
Qed.

(* SVectorBase::remove(n) and IdxSet::remove(n): the last entry moves into the hole.  The model writes the loop once per
   element type; the generic remove_pos of ListAux has the same body, so the bridges hold by conversion. *)
Lemma sv_remove_g p v : sv_remove p v = remove_pos p v.
Proof. reflexivity. Qed.

Lemma nl_remove_pos_g p l : nl_remove_pos p l = remove_pos p l.
Proof. reflexivity. Qed.

Lemma sv_remove_perm p v : (p < length v)%nat -> Permutation (nth p v (0%nat, 0) :: sv_remove p v) v.
Proof. rewrite sv_remove_g. apply remove_pos_perm. Qed.

Lemma sv_remove_nodup : forall p v, sv_nodup v -> sv_nodup (sv_remove p v).
Proof.
  intros p v. unfold sv_nodup, sv_indices. rewrite sv_remove_g, map_remove_pos. apply remove_pos_NoDup.
Qed.

Lemma sv_remove_length : forall p v, (p < length v)%nat -> length (sv_remove p v) = (length v - 1)%nat.
Proof. intros p v. rewrite sv_remove_g. apply remove_pos_length. Qed.

Lemma sv_remove_get : forall p v i, sv_nodup v -> (p < length v)%nat ->
  sv_get (sv_remove p v) i == (if Nat.eqb (fst (nth p v (0%nat, 0))) i then 0 else sv_get v i).
Proof.
  intros p v i Hnd Hp. pose proof (sv_remove_perm p v Hp) as Hperm.
  destruct (nth p v (0%nat, 0)) as [j x]. cbn [fst].
  apply Permutation_sym in Hperm.
  rewrite (sv_get_perm _ _ i Hperm Hnd).
  apply (sv_nodup_perm _ _ Hperm) in Hnd. unfold sv_nodup in Hnd. cbn in Hnd.
  inversion Hnd as [|? ? Hnotin _]; subst.
  cbn [sv_get]. destruct (Nat.eqb_spec j i) as [E|E]; [|reflexivity].
  subst. rewrite sv_get_notin by exact Hnotin. reflexivity.
Qed.

Lemma sv_remove_in_dim n p v : sv_in_dim n v -> sv_in_dim n (sv_remove p v).
Proof.
  unfold sv_in_dim. rewrite !Forall_forall, sv_remove_g. intros H e He. apply H. exact (remove_pos_In _ _ _ _ He).
Qed.

Lemma sv_insert_perm e v : Permutation (sv_insert e v) (e :: v).
Proof.
  induction v as [|y r IH]; cbn [sv_insert]; [reflexivity|].
  destruct (Nat.ltb (fst e) (fst y)); [reflexivity|].
  transitivity (y :: e :: r); [constructor; exact IH | apply perm_swap].
Qed.

Lemma sv_sort_perm_acc v : forall acc,
  Permutation (fold_left (fun acc e => sv_insert e acc) v acc) (v ++ acc).
Proof.
  induction v as [|a r IH]; intros acc; cbn; [reflexivity|].
  rewrite IH. transitivity (r ++ a :: acc).
  - apply Permutation_app_head. apply sv_insert_perm.
  - symmetry. apply Permutation_middle.
Qed.

Lemma sv_sort_perm : forall v, Permutation (sv_sort v) v.
Proof. intros v. unfold sv_sort. rewrite sv_sort_perm_acc. rewrite app_nil_r. reflexivity. Qed.

Definition sv_le (a b : nat * Q) : Prop := (fst a <= fst b)%nat.

Lemma sv_insert_sorted e v : StronglySorted sv_le v -> StronglySorted sv_le (sv_insert e v).
Proof.
  induction v as [|y r IH]; intros Hs; cbn [sv_insert].
  - constructor; constructor.
  - inversion Hs as [|? ? Hs' Hall]; subst. destruct (Nat.ltb_spec (fst e) (fst y)) as [Hlt|Hge].
    + constructor; [exact Hs|]. constructor; [unfold sv_le; lia|].
      eapply Forall_impl; [|exact Hall]. unfold sv_le. intros a Ha. lia.
    + constructor; [apply IH; exact Hs'|].
      rewrite Forall_forall in *. intros a Ha.
      apply (Permutation_in _ (sv_insert_perm e r)) in Ha. destruct Ha as [Ha|Ha].
      * subst. exact Hge.
      * apply Hall. exact Ha.
Qed.

Lemma sv_sort_sorted_acc v : forall acc, StronglySorted sv_le acc ->
  StronglySorted sv_le (fold_left (fun acc e => sv_insert e acc) v acc).
Proof.
  induction v as [|a r IH]; intros acc Hs; cbn; [exact Hs|]. apply IH. apply sv_insert_sorted. exact Hs.
Qed.

Lemma sv_sort_sorted : forall v, StronglySorted (fun a b => (fst a <= fst b)%nat) (sv_sort v).
Proof. intros v. unfold sv_sort. apply (sv_sort_sorted_acc v []). constructor. Qed.

Lemma sv_sort_get : forall v i, sv_nodup v -> sv_get (sv_sort v) i == sv_get v i.
Proof.
  intros v i Hnd. rewrite (sv_get_perm v (sv_sort v) i); [reflexivity| |exact Hnd].
  symmetry. apply sv_sort_perm.
Qed.

Lemma sv_sort_nodup v : sv_nodup v -> sv_nodup (sv_sort v).
Proof. apply sv_nodup_perm. symmetry. apply sv_sort_perm. Qed.

Lemma sv_sort_strict v : sv_nodup v -> sv_sorted (sv_sort v).
Proof.
  intros Hnd. apply sv_sort_nodup in Hnd. pose proof (sv_sort_sorted v) as Hs.
  unfold sv_sorted, sv_nodup in *. induction (sv_sort v) as [|e r IH]; cbn; [constructor|].
  inversion Hs as [|? ? Hs' Hall]; subst. cbn in Hnd. inversion Hnd as [|? ? Hnotin Hnd']; subst.
  constructor; [apply IH; assumption|].
  unfold sv_indices. rewrite Forall_forall in *. intros k Hk.
  apply in_map_iff in Hk. destruct Hk as [a [Ea Ha]]. subst k.
  specialize (Hall a Ha). cbn in Hall.
  assert (fst e <> fst a). { intros C. apply Hnotin. rewrite C. apply in_map. exact Ha. }
  lia.
Qed.

Lemma dv_dot_nil_r a : dv_dot a [] = 0.
Proof. destruct a; reflexivity. Qed.

Lemma dv_dot_eq a a' : dv_eq a a' -> forall b b', dv_eq b b' -> dv_dot a b == dv_dot a' b'.
Proof.
  induction 1 as [|x x' a a' Hx Ha IH]; intros b b' Hb; [reflexivity|].
  inversion Hb as [|y y' b0 b0' Hy Hb0]; subst; cbn [dv_dot]; [reflexivity|].
  rewrite Hx, Hy, (IH _ _ Hb0). reflexivity.
Qed.

Global Instance dv_dot_Proper : Proper (dv_eq ==> dv_eq ==> Qeq) dv_dot.
Proof. intros a a' Ha b b' Hb. apply dv_dot_eq; assumption. Qed.

Lemma dv_dot_zero_l a : forall d, (forall i, dv_get a i == 0) -> dv_dot a d == 0.
Proof.
  induction a as [|y r IH]; intros d H; [reflexivity|]. destruct d as [|z d]; [reflexivity|].
  cbn [dv_dot]. pose proof (H 0%nat) as H0. rewrite dv_get_cons_0 in H0. rewrite H0.
  rewrite IH; [ring|]. intros i. apply (H (S i)).
Qed.

Lemma dv_dot_set_l a : forall i x d, (i < length a)%nat ->
  dv_dot (dv_set a i x) d == dv_dot a d + (x - dv_get a i) * dv_get d i.
Proof.
  induction a as [|y r IH]; intros i x d Hi; cbn in Hi; [lia|].
  destruct i as [|k], d as [|z d']; cbn [dv_set dv_dot];
    rewrite ?dv_get_nil, ?dv_get_cons_0, ?dv_get_cons_S; try ring.
  rewrite IH by lia. ring.
Qed.

Lemma expand_cons n j x r : (j < n)%nat -> dv_eq (expand n ((j, x) :: r)) (dv_set (expand n r) j x).
Proof.
  intros Hj. apply expand_eq; [rewrite dv_set_length; apply expand_length|].
  intros i Hi. rewrite dv_get_set by (rewrite expand_length; exact Hj).
  rewrite expand_get, (proj2 (Nat.ltb_lt i n) Hi). cbn [sv_get]. destruct (Nat.eqb j i); reflexivity.
Qed.

Lemma sv_dot_dv_spec : forall n v d, sv_nodup v -> sv_in_dim n v ->
  sv_dot_dv v d == dv_dot (expand n v) d.
Proof.
  intros n v d Hnd Hdim. unfold sv_nodup in Hnd. induction v as [|[j x] r IH].
  - cbn [sv_dot_dv]. symmetry. apply dv_dot_zero_l. intros i. rewrite expand_get.
    destruct (Nat.ltb i n); reflexivity.
  - cbn in Hnd. inversion Hnd as [|? ? Hnotin Hnd']; subst.
    inversion Hdim as [|? ? Hj Hdim']; subst. cbn [fst] in Hj.
    cbn [sv_dot_dv]. rewrite (expand_cons n j x r Hj).
    rewrite dv_dot_set_l by (rewrite expand_length; exact Hj).
    rewrite expand_get. rewrite (sv_get_notin r j Hnotin).
    rewrite (IH Hnd' Hdim'). destruct (Nat.ltb j n); ring.
Qed.

(* Both scalar products of index-sorted operands (SVectorBase * SVectorBase walks upwards, SSVectorBase * SSVectorBase
   downwards) are the same loop over two key-sorted lists.  M is any function that obeys the equations of that loop,
   R the order of the keys; the loop sums f over the pairs with equal keys. *)
Section MergeJoin.
Variables (A B : Type) (ka : A -> nat) (kb : B -> nat) (R : nat -> nat -> Prop) (ltb : nat -> nat -> bool).
Variables (f : A -> B -> Q) (M : list A -> list B -> Q).
Hypothesis R_ltb : forall x y, ltb x y = true <-> R x y.
Hypothesis R_trans : forall x y z, R x y -> R y z -> R x z.
Hypothesis R_irrefl : forall x, ~ R x x.
Hypothesis R_total : forall x y, x <> y -> ~ R x y -> R y x.
Hypothesis M_nil_l : forall v, M [] v = 0.
Hypothesis M_nil_r : forall u, M u [] = 0.
Hypothesis M_cons : forall a u b v, M (a :: u) (b :: v) =
  if Nat.eqb (ka a) (kb b) then f a b + M u v else if ltb (ka a) (kb b) then M u (b :: v) else M (a :: u) v.

(* what the loop computes, without the order: join_pick is f of a and the first element of v with the key of a (0 if
   there is none), join_sum adds this over u *)
Fixpoint join_pick (a : A) (v : list B) : Q :=
  match v with
  | [] => 0
  | b :: w => if Nat.eqb (ka a) (kb b) then f a b else join_pick a w
  end.
Definition join_sum (u : list A) (v : list B) : Q := fold_right (fun a s => join_pick a v + s) 0 u.

Lemma join_sum_cons a u v : join_sum (a :: u) v = join_pick a v + join_sum u v.
Proof. reflexivity. Qed.

Lemma join_pick_none a w : Forall (R (ka a)) (map kb w) -> join_pick a w = 0.
Proof.
  induction w as [|b w IH]; intros H; [reflexivity|]. cbn [map] in H. inversion H as [|? ? Hb Hw]; subst.
  cbn [join_pick]. destruct (Nat.eqb_spec (ka a) (kb b)) as [E|E]; [|apply IH; exact Hw].
  rewrite <- E in Hb. destruct (R_irrefl _ Hb).
Qed.

Lemma join_sum_skip u b w : Forall (R (kb b)) (map ka u) -> join_sum u (b :: w) == join_sum u w.
Proof.
  induction u as [|a r IH]; intros H; [reflexivity|]. cbn [map] in H. inversion H as [|? ? Ha Hr]; subst.
  rewrite !join_sum_cons, (IH Hr). cbn [join_pick].
  destruct (Nat.eqb_spec (ka a) (kb b)) as [E|E]; [|reflexivity]. rewrite E in Ha. destruct (R_irrefl _ Ha).
Qed.

Lemma merge_join_sum : forall u, StronglySorted R (map ka u) -> forall v, StronglySorted R (map kb v) ->
  M u v == join_sum u v.
Proof.
  induction u as [|a u' IHu]; intros Hu; [intros; rewrite M_nil_l; reflexivity|].
  cbn [map] in Hu. inversion Hu as [|? ? Hu' Hall]; subst.
  induction v as [|b w IHw]; intros Hv.
  - rewrite M_nil_r. clear. induction (a :: u') as [|c r IH]; [reflexivity|].
    rewrite join_sum_cons, <- IH. cbn [join_pick]. ring.
  - cbn [map] in Hv. inversion Hv as [|? ? Hw Hallw]; subst. rewrite M_cons.
    rewrite join_sum_cons. cbn [join_pick]. destruct (Nat.eqb_spec (ka a) (kb b)) as [E|E].
    + rewrite (IHu Hu' w Hw), join_sum_skip by (rewrite <- E; exact Hall). reflexivity.
    + destruct (ltb (ka a) (kb b)) eqn:Hlt.
      * apply R_ltb in Hlt. rewrite (IHu Hu' (b :: w) Hv), join_pick_none; [ring|].
        eapply Forall_impl; [|exact Hallw]. intros k Hk. exact (R_trans _ _ _ Hlt Hk).
      * assert (Hgt : R (kb b) (ka a)).
        { apply R_total; [congruence|]. intros C. apply R_ltb in C. congruence. }
        rewrite (IHw Hw), join_sum_cons, join_sum_skip; [reflexivity|].
        eapply Forall_impl; [|exact Hall]. intros k Hk. exact (R_trans _ _ _ Hgt Hk).
Qed.
End MergeJoin.

(* the scalar product read through sv_get: each entry of u times the value of v at its index *)
Fixpoint sv_dot_get (u v : svec) : Q :=
  match u with
  | [] => 0
  | (i, x) :: r => x * sv_get v i + sv_dot_get r v
  end.

Lemma sv_dot_sv_nil_r u : sv_dot_sv u [] = 0.
Proof. destruct u as [|[i x] r]; reflexivity. Qed.

Lemma sv_dot_sv_get : forall u, sv_sorted u -> forall v, sv_sorted v -> sv_dot_sv u v == sv_dot_get u v.
Proof.
  intros u Hu v Hv.
  etransitivity.
  { apply (merge_join_sum _ _ fst fst lt Nat.ltb (fun a b => snd a * snd b) sv_dot_sv Nat.ltb_lt Nat.lt_trans
             Nat.lt_irrefl); try assumption; try reflexivity;
      [intros; lia | apply sv_dot_sv_nil_r | intros [i x] ? [j y] ?; reflexivity]. }
  clear. induction u as [|[i x] r IH]; [reflexivity|].
  rewrite join_sum_cons, IH. cbn [sv_dot_get]. apply Qplus_comp; [|reflexivity]. clear IH.
  induction v as [|[j y] w IHv]; cbn [join_pick sv_get fst snd]; [ring|].
  rewrite (Nat.eqb_sym i j). destruct (Nat.eqb j i); [reflexivity | exact IHv].
Qed.

Lemma sv_dot_dv_expand n u v : sv_in_dim n u -> sv_dot_dv u (expand n v) == sv_dot_get u v.
Proof.
  induction u as [|[i x] r IH]; intros H; [reflexivity|].
  inversion H as [|? ? Hi Hr]; subst. cbn [fst] in Hi. cbn [sv_dot_dv sv_dot_get]. rewrite expand_get.
  apply Nat.ltb_lt in Hi. rewrite Hi. rewrite (IH Hr). reflexivity.
Qed.

Lemma sv_sorted_nodup v : sv_sorted v -> sv_nodup v.
Proof. apply StronglySorted_lt_NoDup. Qed.

Lemma sv_dot_sv_spec : forall n u v, sv_sorted u -> sv_sorted v -> sv_in_dim n u ->
  sv_dot_sv u v == dv_dot (expand n u) (expand n v).
Proof.
  intros n u v Hu Hv Hdu. rewrite (sv_dot_sv_get u Hu v Hv).
  rewrite <- (sv_dot_dv_expand n u v Hdu).
  apply sv_dot_dv_spec; [apply sv_sorted_nodup; exact Hu | exact Hdu].
Qed.

(* the entries of a dense vector paired with their positions; sv_of_dv and the scan of setup() filter this list *)
Lemma combine_seq_indices d s : sv_indices (combine (seq s (length d)) d) = seq s (length d).
Proof. apply map_fst_combine, seq_length. Qed.

Lemma combine_seq_nodup d s : sv_nodup (combine (seq s (length d)) d).
Proof. unfold sv_nodup. rewrite combine_seq_indices. apply seq_NoDup. Qed.

Lemma combine_seq_get d : forall s k, sv_get (combine (seq s (length d)) d) (s + k) = dv_get d k.
Proof.
  induction d as [|x r IH]; intros s k; cbn [length seq combine sv_get]; [symmetry; apply dv_get_nil|].
  destruct k as [|k]; [rewrite Nat.add_0_r, Nat.eqb_refl; reflexivity|].
  rewrite (proj2 (Nat.eqb_neq s (s + S k))) by lia. rewrite <- Nat.add_succ_comm. apply IH.
Qed.

Lemma sv_of_dv_from_eq d : forall s, sv_of_dv_from d s = rev (sv_assign (combine (seq s (length d)) d)).
Proof.
  induction d as [|x r IH]; intros s; [reflexivity|].
  cbn [sv_of_dv_from length seq combine]. unfold sv_assign in *. cbn [filter snd]. rewrite IH.
  destruct (qzero x); cbn [negb rev]; [apply app_nil_r | reflexivity].
Qed.

Lemma sv_of_dv_get d k : sv_get (sv_of_dv d) k == dv_get d k.
Proof.
  unfold sv_of_dv. rewrite sv_of_dv_from_eq.
  rewrite <- (sv_get_perm _ _ k (Permutation_rev _)) by apply sv_assign_nodup, combine_seq_nodup.
  rewrite sv_assign_get by apply combine_seq_nodup. rewrite <- (combine_seq_get d 0 k). reflexivity.
Qed.

Lemma sv_of_dv_expand : forall d, dv_eq (expand (length d) (sv_of_dv d)) d.
Proof.
  intros d. apply expand_eq; [reflexivity|]. intros i _. apply sv_of_dv_get.
Qed.

Lemma sv_of_dv_nodup : forall d, sv_nodup (sv_of_dv d).
Proof.
  intros d. unfold sv_of_dv. rewrite sv_of_dv_from_eq.
  apply (sv_nodup_perm _ _ (Permutation_rev _)), sv_assign_nodup, combine_seq_nodup.
Qed.

Lemma sv_of_dv_nonzero : forall d, sv_nonzero (sv_of_dv d).
Proof. intros d. unfold sv_of_dv, sv_nonzero. rewrite sv_of_dv_from_eq. apply Forall_rev, sv_assign_nonzero. Qed.

Lemma sv_of_dv_in_dim : forall d, sv_in_dim (length d) (sv_of_dv d).
Proof.
  intros d. unfold sv_of_dv, sv_in_dim. rewrite sv_of_dv_from_eq. apply Forall_rev, sv_assign_in_dim, sv_in_dim_iff.
  rewrite combine_seq_indices. apply Forall_forall. intros i Hi. apply in_seq in Hi. lia.
Qed.

(* operator*(SVectorBase, x) appends the non-zero products one by one: the scaled vector without its zeros *)
Lemma sv_times_eq x v : sv_times v x = sv_assign (sv_scale x v).
Proof.
  unfold sv_times. rewrite <- (app_nil_l (sv_assign _)). generalize (@nil (nat * Q)).
  unfold sv_assign, sv_scale. induction v as [|e r IH]; intros acc; cbn [fold_left map filter snd]; [symmetry; apply app_nil_r|].
  rewrite IH. unfold sv_add. destruct (qzero (snd e * x)); cbn [negb]; [reflexivity | rewrite <- app_assoc; reflexivity].
Qed.

Lemma sv_times_get : forall v x i, sv_nodup v -> sv_get (sv_times v x) i == sv_get v i * x.
Proof.
  intros v x i Hnd. rewrite sv_times_eq, sv_assign_get by (unfold sv_nodup; rewrite sv_scale_indices; exact Hnd).
  apply sv_scale_get.
Qed.

Lemma sv_times_nodup : forall v x, sv_nodup v -> sv_nodup (sv_times v x).
Proof. intros v x Hnd. rewrite sv_times_eq. apply sv_assign_nodup. unfold sv_nodup. rewrite sv_scale_indices. exact Hnd. Qed.

Lemma sv_times_nonzero : forall v x, sv_nonzero (sv_times v x).
Proof. intros v x. rewrite sv_times_eq. apply sv_assign_nonzero. Qed.

(* a loop of point updates at distinct positions: position k ends up with g k applied to its old value *)
Lemma dv_fold_right_upd_length {A} (ix : A -> nat) (f : A -> Q -> Q) l d :
  length (fold_right (fun a acc => dv_upd acc (ix a) (f a)) d l) = length d.
Proof. induction l as [|a r IH]; cbn [fold_right]; [reflexivity|]. rewrite dv_upd_length. exact IH. Qed.

Lemma dv_fold_left_upd_length {A} (ix : A -> nat) (f : A -> Q -> Q) l : forall d,
  length (fold_left (fun acc a => dv_upd acc (ix a) (f a)) l d) = length d.
Proof. induction l as [|a r IH]; intros d; cbn [fold_left]; [reflexivity|]. rewrite IH. apply dv_upd_length. Qed.

Lemma dv_fold_right_upd_get {A} (ix : A -> nat) (f : A -> Q -> Q) (g : nat -> Q -> Q) l d :
  NoDup (map ix l) -> Forall (fun a => (ix a < length d)%nat) l -> (forall a, In a l -> forall y, f a y = g (ix a) y) ->
  forall k, dv_get (fold_right (fun a acc => dv_upd acc (ix a) (f a)) d l) k
            = if memb k (map ix l) then g k (dv_get d k) else dv_get d k.
Proof.
  induction l as [|a r IH]; intros Hnd Hdim Hfg k; [reflexivity|]. cbn [map] in Hnd.
  inversion Hnd as [|? ? Hnotin Hnd']; subst. inversion Hdim as [|? ? Ha Hdim']; subst.
  cbn [fold_right map existsb]. rewrite dv_get_upd by (rewrite dv_fold_right_upd_length; exact Ha).
  rewrite !IH by (try assumption; intros b Hb; apply Hfg; right; exact Hb).
  rewrite (Nat.eqb_sym k). destruct (Nat.eqb_spec (ix a) k) as [<-|E]; cbn [orb]; [|reflexivity].
  apply memb_notIn in Hnotin. rewrite Hnotin. apply Hfg. left. reflexivity.
Qed.

Lemma dv_fold_left_upd_get {A} (ix : A -> nat) (f : A -> Q -> Q) (g : nat -> Q -> Q) l d :
  NoDup (map ix l) -> Forall (fun a => (ix a < length d)%nat) l -> (forall a, In a l -> forall y, f a y = g (ix a) y) ->
  forall k, dv_get (fold_left (fun acc a => dv_upd acc (ix a) (f a)) l d) k
            = if memb k (map ix l) then g k (dv_get d k) else dv_get d k.
Proof.
  intros Hnd Hdim Hfg k. pose proof (fold_left_rev_right (fun a acc => dv_upd acc (ix a) (f a)) l d) as E.
  cbv beta in E. rewrite <- E, (dv_fold_right_upd_get ix f g).
  - replace (memb k (map ix (rev l))) with (memb k (map ix l)); [reflexivity|].
    apply eq_true_iff_eq. rewrite !memb_In, map_rev, <- in_rev. reflexivity.
  - rewrite map_rev. apply NoDup_rev. exact Hnd.
  - apply Forall_rev. exact Hdim.
  - intros a Ha. apply Hfg, in_rev, Ha.
Qed.

Lemma dv_fold_op_get (op : Q -> Q -> Q) (v : svec) d i : sv_nodup v -> sv_in_dim (length d) v ->
  dv_get (fold_right (fun e acc => dv_upd acc (fst e) (fun y => op y (snd e))) d v) i
  = if memb i (sv_indices v) then op (dv_get d i) (sv_get v i) else dv_get d i.
Proof.
  intros Hnd Hdim.
  apply (dv_fold_right_upd_get fst (fun e y => op y (snd e)) (fun j y => op y (sv_get v j))); try assumption.
  intros [j x] He y. cbn [fst snd]. rewrite (sv_get_in v j x Hnd He). reflexivity.
Qed.

(* an operation with neutral element 0 needs no case distinction on the index set *)
Lemma dv_fold_op_get0 (op : Q -> Q -> Q) (v : svec) d i : (forall y, op y 0 == y) ->
  sv_nodup v -> sv_in_dim (length d) v ->
  dv_get (fold_right (fun e acc => dv_upd acc (fst e) (fun y => op y (snd e))) d v) i
  == op (dv_get d i) (sv_get v i).
Proof.
  intros H0 Hnd Hdim. rewrite dv_fold_op_get by assumption.
  destruct (memb_spec i (sv_indices v)) as [Hm|Hm]; [reflexivity|].
  rewrite (sv_get_notin v i Hm). symmetry. apply H0.
Qed.

Lemma dv_multadd_sv_length x v d : length (dv_multadd_sv x v d) = length d.
Proof. apply (dv_fold_right_upd_length fst (fun e y => y + x * snd e)). Qed.

Lemma dv_multadd_sv_get : forall x v d i, sv_nodup v -> sv_in_dim (length d) v ->
  dv_get (dv_multadd_sv x v d) i == dv_get d i + x * sv_get v i.
Proof. intros x v d i. apply (dv_fold_op_get0 (fun y z => y + x * z)). intros y. ring. Qed.

Lemma dv_add_sv_length v d : length (dv_add_sv v d) = length d.
Proof. apply (dv_fold_right_upd_length fst (fun e y => y + snd e)). Qed.

Lemma dv_add_sv_get : forall v d i, sv_nodup v -> sv_in_dim (length d) v ->
  dv_get (dv_add_sv v d) i == dv_get d i + sv_get v i.
Proof. intros v d i. apply (dv_fold_op_get0 Qplus). intros y. ring. Qed.

Lemma dv_sub_sv_length v d : length (dv_sub_sv v d) = length d.
Proof. apply (dv_fold_right_upd_length fst (fun e y => y - snd e)). Qed.

Lemma dv_sub_sv_get : forall v d i, sv_nodup v -> sv_in_dim (length d) v ->
  dv_get (dv_sub_sv v d) i == dv_get d i - sv_get v i.
Proof. intros v d i. apply (dv_fold_op_get0 Qminus). intros y. ring. Qed.

Lemma dv_multsub_sv_length x v d : length (dv_multsub_sv x v d) = length d.
Proof. apply (dv_fold_right_upd_length fst (fun e y => y - x * snd e)). Qed.

Lemma dv_multsub_sv_get : forall x v d i, sv_nodup v -> sv_in_dim (length d) v ->
  dv_get (dv_multsub_sv x v d) i == dv_get d i - x * sv_get v i.
Proof. intros x v d i. apply (dv_fold_op_get0 (fun y z => y - x * z)). intros y. ring. Qed.

Lemma dv_assign_sv_length v d : length (dv_assign_sv v d) = length d.
Proof. apply (dv_fold_right_upd_length fst (fun e _ => snd e)). Qed.

Lemma dv_assign_sv_get : forall v d i, sv_nodup v -> sv_in_dim (length d) v ->
  dv_get (dv_assign_sv v d) i == (if existsb (Nat.eqb i) (sv_indices v) then sv_get v i else dv_get d i).
Proof. intros v d i Hnd Hdim. rewrite <- (dv_fold_op_get (fun _ z => z)) by assumption. reflexivity. Qed.

Lemma dv_fold_set_length (v : svec) : forall acc,
  length (fold_left (fun acc e => dv_set acc (fst e) (snd e)) v acc) = length acc.
Proof. exact (dv_fold_left_upd_length fst (fun e _ => snd e) v). Qed.

Lemma dv_fold_set_get (v : svec) acc i : sv_nodup v -> sv_in_dim (length acc) v ->
  dv_get (fold_left (fun acc e => dv_set acc (fst e) (snd e)) v acc) i
  = if memb i (sv_indices v) then sv_get v i else dv_get acc i.
Proof.
  intros Hnd Hdim. apply (dv_fold_left_upd_get fst (fun e _ => snd e) (fun j _ => sv_get v j)); try assumption.
  intros [j x] He _. symmetry. exact (sv_get_in v j x Hnd He).
Qed.

Lemma dv_set_sv_length v d : length (dv_set_sv v d) = length d.
Proof. unfold dv_set_sv. rewrite dv_fold_set_length. apply dv_clear_length. Qed.

Lemma dv_set_sv_expand : forall v d, sv_nodup v -> sv_in_dim (length d) v ->
  dv_eq (dv_set_sv v d) (expand (length d) v).
Proof.
  intros v d Hnd Hdim. symmetry. apply expand_eq; [apply dv_set_sv_length|]. intros i _. unfold dv_set_sv.
  rewrite dv_fold_set_get, dv_get_clear; [|exact Hnd | rewrite dv_clear_length; exact Hdim].
  destruct (memb_spec i (sv_indices v)) as [Hm|Hm]; [reflexivity|]. rewrite (sv_get_notin v i Hm). reflexivity.
Qed.

Lemma dv_zip_length f a : forall b, length a = length b -> length (dv_zip f a b) = length a.
Proof.
  induction a as [|x a IH]; intros [|y b] Hl; cbn in *; try discriminate; [reflexivity|].
  rewrite IH by lia. reflexivity.
Qed.

Lemma dv_zip_get f a : forall b i, length a = length b -> (i < length a)%nat ->
  dv_get (dv_zip f a b) i = f (dv_get a i) (dv_get b i).
Proof.
  induction a as [|x a IH]; intros [|y b] i Hl Hi; cbn in Hl, Hi; try discriminate; [lia|].
  cbn [dv_zip]. destruct i as [|k]; [reflexivity|]. rewrite !dv_get_cons_S. apply IH; lia.
Qed.

Lemma dv_zip_get0 f a b i : length a = length b -> f 0 0 == 0 ->
  dv_get (dv_zip f a b) i == f (dv_get a i) (dv_get b i).
Proof.
  intros Hl Hf. destruct (Nat.lt_ge_cases i (length a)) as [Hi|Hi].
  - rewrite dv_zip_get by assumption. reflexivity.
  - rewrite !dv_get_overflow; [symmetry; exact Hf | lia | lia | rewrite dv_zip_length by exact Hl; lia].
Qed.

Lemma dv_add_length a b : length a = length b -> length (dv_add a b) = length a.
Proof. apply dv_zip_length. Qed.
Lemma dv_sub_length a b : length a = length b -> length (dv_sub a b) = length a.
Proof. apply dv_zip_length. Qed.
Lemma dv_multadd_length x b a : length a = length b -> length (dv_multadd x b a) = length a.
Proof. apply dv_zip_length. Qed.
Lemma dv_scale_length x a : length (dv_scale x a) = length a.
Proof. apply map_length. Qed.

Lemma dv_add_get : forall a b i, length a = length b -> dv_get (dv_add a b) i == dv_get a i + dv_get b i.
Proof. intros a b i Hl. unfold dv_add. apply (dv_zip_get0 Qplus); [exact Hl | ring]. Qed.

Lemma dv_sub_get : forall a b i, length a = length b -> dv_get (dv_sub a b) i == dv_get a i - dv_get b i.
Proof. intros a b i Hl. unfold dv_sub. apply (dv_zip_get0 Qminus); [exact Hl | ring]. Qed.

Lemma dv_multadd_get : forall x b a i, length a = length b ->
  dv_get (dv_multadd x b a) i == dv_get a i + x * dv_get b i.
Proof.
  intros x b a i Hl. unfold dv_multadd. apply (dv_zip_get0 (fun y z => y + x * z)); [exact Hl | ring].
Qed.

Lemma dv_scale_get : forall x a i, dv_get (dv_scale x a) i == dv_get a i * x.
Proof. intros x a. apply (dv_map_get (fun y => y * x)). ring. Qed.

Lemma dv_neg_length a : length (dv_neg a) = length a.
Proof. apply map_length. Qed.

Lemma dv_neg_get : forall a i, dv_get (dv_neg a) i == - dv_get a i.
Proof. intros a. apply (dv_map_get Qopp). ring. Qed.

Lemma dv_dot_comm : forall a b, dv_dot a b == dv_dot b a.
Proof.
  induction a as [|x a IH]; intros [|y b]; cbn [dv_dot]; try reflexivity.
  rewrite IH. ring.
Qed.

Lemma dv_dot_add_l : forall a b c, length a = length b ->
  dv_dot (dv_add a b) c == dv_dot a c + dv_dot b c.
Proof.
  unfold dv_add. induction a as [|x a IH]; intros [|y b] c Hl; cbn in Hl; try discriminate.
  - cbn. ring.
  - destruct c as [|z c]; cbn [dv_zip dv_dot]; [ring|]. rewrite IH by lia. ring.
Qed.

Lemma dv_dot_scale_l : forall x a c, dv_dot (dv_scale x a) c == x * dv_dot a c.
Proof.
  unfold dv_scale. intros x. induction a as [|y a IH]; intros c; cbn [map dv_dot]; [ring|].
  destruct c as [|z c]; [ring|]. rewrite IH. ring.
Qed.

Lemma dv_redim_length n d : length (dv_redim n d) = n.
Proof.
  unfold dv_redim. rewrite app_length, firstn_length, repeat_length. lia.
Qed.

Lemma dv_redim_get : forall n d i, dv_get (dv_redim n d) i = if Nat.ltb i n then dv_get d i else 0.
Proof.
  unfold dv_redim. intros n d. revert n. induction d as [|y r IH]; intros n i.
  - rewrite firstn_nil. cbn [app length]. rewrite Nat.sub_0_r. change (repeat 0 n) with (dv_zero n).
    rewrite dv_get_zero, dv_get_nil. destruct (Nat.ltb i n); reflexivity.
  - destruct n as [|n]; [cbn [firstn app length Nat.sub repeat]; rewrite dv_get_nil; reflexivity|].
    cbn [firstn length Nat.sub app]. destruct i as [|k]; [reflexivity|].
    rewrite !dv_get_cons_S. rewrite IH. reflexivity.
Qed.

(* well-formedness of a semi-sparse vector; it constrains only set-up vectors: the index list has no duplicate, is in
   range, and misses no value above eps *)
Definition ss_ok (eps : Q) (s : ssvec) : Prop :=
  ss_setup s = true ->
  NoDup (ss_idx s) /\ Forall (fun i => (i < ss_dim s)%nat) (ss_idx s) /\
  (forall i, (i < ss_dim s)%nat -> ~ dv_get (ss_val s) i == 0 ->
             In i (ss_idx s) \/ Qabs (dv_get (ss_val s) i) <= eps).

(* the third clause of ss_ok on its own: a non-zero of d is indexed or at most eps *)
Definition cov (eps : Q) (d : dvec) (idx : list nat) : Prop :=
  forall i, (i < length d)%nat -> ~ dv_get d i == 0 -> In i idx \/ Qabs (dv_get d i) <= eps.

Lemma ss_ok_mk eps d idx b :
  NoDup idx -> Forall (fun i => (i < length d)%nat) idx -> cov eps d idx -> ss_ok eps (mkSS d idx b).
Proof. intros H1 H2 H3 _. cbn. auto. Qed.

Lemma ss_ok_unsetup eps d idx : ss_ok eps (mkSS d idx false).
Proof. intros C. discriminate C. Qed.

Lemma ss_ok_elim eps s : ss_ok eps s -> ss_setup s = true ->
  NoDup (ss_idx s) /\ Forall (fun i => (i < length (ss_val s))%nat) (ss_idx s) /\ cov eps (ss_val s) (ss_idx s).
Proof. intros H Hs. exact (H Hs). Qed.

Lemma Qabs_le0 x : Qabs x <= 0 -> x == 0.
Proof. apply Qabs_case; intros; lra. Qed.

Lemma Qabs_0_le eps : 0 <= eps -> Qabs 0 <= eps.
Proof. intros H. exact H. Qed.

Lemma cov_set eps d idx idx' j x :
  cov eps d idx -> (forall k, k <> j -> In k idx -> In k idx') ->
  (~ x == 0 -> In j idx' \/ Qabs x <= eps) -> cov eps (dv_set d j x) idx'.
Proof.
  intros Hc Hsub Hx i Hi Hnz. rewrite dv_set_length in Hi. destruct (Nat.eq_dec j i) as [E|E].
  - subst. rewrite dv_get_set_same in * by exact Hi. apply Hx. exact Hnz.
  - rewrite dv_get_set_other in * by exact E.
    destruct (Hc i Hi Hnz) as [H|H]; [left; apply Hsub; auto | right; exact H].
Qed.

Lemma cov_total eps d idx k : cov eps d idx -> ~ dv_get d k == 0 -> In k idx \/ Qabs (dv_get d k) <= eps.
Proof.
  intros Hc Hnz. apply Hc; [apply dv_get_nz_lt|]; exact Hnz.
Qed.

Lemma ss_ok0_in s i : ss_ok 0 s -> ss_setup s = true -> ~ dv_get (ss_val s) i == 0 -> In i (ss_idx s).
Proof.
  intros Hok Hs Hnz. destruct (ss_ok_elim _ _ Hok Hs) as (_ & _ & Hc).
  destruct (cov_total _ _ _ i Hc Hnz) as [H|H]; [exact H | destruct (Hnz (Qabs_le0 _ H))].
Qed.

Lemma ss_ok0_notin s i : ss_ok 0 s -> ss_setup s = true -> ~ In i (ss_idx s) -> dv_get (ss_val s) i == 0.
Proof.
  intros Hok Hs Hn. destruct (Qeq_dec (dv_get (ss_val s) i) 0) as [E|E]; [exact E | destruct (Hn (ss_ok0_in s i Hok Hs E))].
Qed.

Lemma scan_val_length eps d : length (scan_val eps d) = length d.
Proof. apply map_length. Qed.

(* a value of magnitude <= eps is stored as an exact 0 *)
Definition tiny_val (eps y : Q) : Q := if qle_bool (qabs y) eps then 0 else y.

Lemma tiny_val_le eps y : Qabs y <= eps -> tiny_val eps y = 0.
Proof. intros H. apply qle_true in H. unfold tiny_val, qabs. rewrite H. reflexivity. Qed.

Lemma tiny_val_gt eps y : ~ Qabs y <= eps -> tiny_val eps y = y.
Proof. intros H. apply qle_false in H. unfold tiny_val, qabs. rewrite H. reflexivity. Qed.

Lemma tiny_val0 y : tiny_val 0 y == y.
Proof.
  destruct (Qlt_le_dec 0 (Qabs y)) as [H|H]; [rewrite tiny_val_gt by lra; reflexivity|].
  rewrite tiny_val_le by exact H. symmetry. apply Qabs_le0. exact H.
Qed.

Lemma scan_val_get eps d i : dv_get (scan_val eps d) i == tiny_val eps (dv_get d i).
Proof.
  unfold scan_val. rewrite dv_map_get by reflexivity. destruct (qzero (dv_get d i)) eqn:Hz; [|reflexivity].
  apply qzero_true in Hz. unfold tiny_val. destruct (qle_bool _ eps); [exact Hz | reflexivity].
Qed.

Lemma ss_setup_force_val : forall eps s i,
  dv_get (ss_val (ss_setup_force eps s)) i == tiny_val eps (dv_get (ss_val s) i).
Proof. intros eps s i. apply scan_val_get. Qed.

Lemma scan_val0 d : dv_eq (scan_val 0 d) d.
Proof. apply dv_eq_of_get; [apply scan_val_length|]. intros i _. rewrite scan_val_get. apply tiny_val0. Qed.

Lemma ss_setup_force_val0 : forall s, dv_eq (ss_val (ss_setup_force 0 s)) (ss_val s).
Proof. intros s. apply scan_val0. Qed.

Lemma ss_setup_force_dim eps s : ss_dim (ss_setup_force eps s) = ss_dim s.
Proof. apply scan_val_length. Qed.

Lemma scan_idx_range eps d : forall s i, In i (scan_idx eps d s) -> (s <= i < s + length d)%nat.
Proof.
  induction d as [|x r IH]; intros s i; cbn [scan_idx length]; [intros []|].
  destruct (qzero x); [intros H; apply IH in H; lia|].
  destruct (qle_bool (qabs x) eps); [intros H; apply IH in H; lia|].
  intros [H|H]; [lia | apply IH in H; lia].
Qed.

Lemma scan_idx_sorted eps d : forall s, StronglySorted lt (scan_idx eps d s).
Proof.
  induction d as [|x r IH]; intros s; cbn [scan_idx]; [constructor|].
  destruct (qzero x); [apply IH|]. destruct (qle_bool (qabs x) eps); [apply IH|].
  constructor; [apply IH|]. apply Forall_forall. intros k Hk. apply scan_idx_range in Hk. lia.
Qed.

Lemma scan_idx_eq eps d : forall s,
  scan_idx eps d s = sv_indices (filter (fun e => negb (qzero (snd e)) && negb (qle_bool (qabs (snd e)) eps))
                                        (combine (seq s (length d)) d)).
Proof.
  induction d as [|x r IH]; intros s; [reflexivity|]. cbn [scan_idx length seq combine filter snd]. rewrite IH.
  destruct (qzero x); [reflexivity|]. destruct (qle_bool (qabs x) eps); reflexivity.
Qed.

Lemma scan_idx_In eps d i : 0 <= eps ->
  In i (scan_idx eps d 0) <-> (i < length d)%nat /\ ~ Qabs (dv_get d i) <= eps.
Proof.
  intros He. rewrite scan_idx_eq, sv_filter_indices_iff by apply combine_seq_nodup.
  rewrite combine_seq_indices, in_seq, (combine_seq_get d 0 i : sv_get _ i = _). cbn [snd].
  rewrite andb_true_iff, !negb_true_iff, qzero_false, qle_false. split; [intros [H1 [_ H2]]; split; [lia | exact H2]|].
  intros [H1 H2]. split; [lia|]. split; [|exact H2]. intros E. apply H2. unfold qabs. rewrite E. exact He.
Qed.

Lemma ss_setup_force_idx : forall eps s i, 0 <= eps ->
  (In i (ss_idx (ss_setup_force eps s)) <->
   (i < ss_dim s)%nat /\ ~ Qabs (dv_get (ss_val s) i) <= eps).
Proof.
  intros eps s i He. apply scan_idx_In. exact He.
Qed.

Lemma ss_setup_force_sorted : forall eps s, StronglySorted lt (ss_idx (ss_setup_force eps s)).
Proof. intros eps s. apply scan_idx_sorted. Qed.

Lemma ss_setup_force_setup eps s : ss_setup (ss_setup_force eps s) = true.
Proof. reflexivity. Qed.

Lemma ss_setup_force_ok : forall eps s, 0 <= eps -> ss_ok eps (ss_setup_force eps s).
Proof.
  intros eps s He. unfold ss_setup_force. apply ss_ok_mk.
  - apply StronglySorted_lt_NoDup. apply scan_idx_sorted.
  - apply Forall_forall. intros k Hk. apply scan_idx_range in Hk. rewrite scan_val_length. lia.
  - intros i Hi Hnz. rewrite scan_val_length in Hi. left.
    apply (scan_idx_In eps _ _ He). split; [exact Hi|].
    intros C. apply Hnz. rewrite scan_val_get, tiny_val_le by exact C. reflexivity.
Qed.

Lemma ss_setup_force_strict : forall eps s i, 0 <= eps ->
  (In i (ss_idx (ss_setup_force eps s)) -> ~ Qabs (dv_get (ss_val (ss_setup_force eps s)) i) <= eps) /\
  (~ In i (ss_idx (ss_setup_force eps s)) -> dv_get (ss_val (ss_setup_force eps s)) i == 0).
Proof.
  intros eps s i He. rewrite ss_setup_force_idx, ss_setup_force_val by exact He.
  destruct (Qlt_le_dec eps (Qabs (dv_get (ss_val s) i))) as [Hq|Hq].
  - apply Qlt_not_le in Hq. rewrite tiny_val_gt by exact Hq. split; [intros _; exact Hq|]. intros H.
    destruct (Nat.lt_ge_cases i (ss_dim s)) as [Hi|Hi]; [destruct H; split; assumption|].
    rewrite dv_get_overflow by exact Hi. reflexivity.
  - rewrite tiny_val_le by exact Hq. split; [intros [_ H]; destruct (H Hq) | reflexivity].
Qed.

Lemma ss_do_setup_ok : forall eps s, 0 <= eps -> ss_ok eps s -> ss_ok eps (ss_do_setup eps s).
Proof.
  intros eps s He Hok. unfold ss_do_setup. destruct (ss_setup s); [exact Hok | apply ss_setup_force_ok; exact He].
Qed.

Lemma ss_do_setup_setup eps s : ss_setup (ss_do_setup eps s) = true.
Proof. unfold ss_do_setup. destruct (ss_setup s) eqn:H; [exact H | reflexivity]. Qed.

Lemma ss_resetup_ok : forall eps s, 0 <= eps -> ss_ok eps (ss_resetup eps s).
Proof.
  intros eps s He. unfold ss_resetup. destruct (ss_setup s) eqn:Hs.
  - apply ss_setup_force_ok. exact He.
  - intros C. congruence.
Qed.

Lemma ss_resetup_val0 s : dv_eq (ss_val (ss_resetup 0 s)) (ss_val s).
Proof. unfold ss_resetup. destruct (ss_setup s); [apply scan_val0 | reflexivity]. Qed.

Lemma ss_resetup_dim eps s : ss_dim (ss_resetup eps s) = ss_dim s.
Proof. unfold ss_resetup. destruct (ss_setup s); [apply scan_val_length | reflexivity]. Qed.

Lemma nl_pos_from_none l : forall i p, nl_pos_from l i p = None <-> ~ In i l.
Proof.
  induction l as [|j r IH]; intros i p; cbn [nl_pos_from In]; [split; [intros _ [] | reflexivity]|].
  destruct (Nat.eqb_spec j i) as [E|E].
  - split; [discriminate | intros H; exfalso; apply H; left; exact E].
  - rewrite IH. split; [intros H [C|C]; contradiction | intros H C; apply H; right; exact C].
Qed.

Lemma nl_pos_from_some l : forall i p n, nl_pos_from l i p = Some n ->
  (p <= n)%nat /\ (n - p < length l)%nat /\ nth (n - p) l 0%nat = i.
Proof.
  induction l as [|j r IH]; intros i p n; cbn [nl_pos_from]; [discriminate|].
  destruct (Nat.eqb_spec j i) as [E|E].
  - intros H. inversion H; subst. rewrite Nat.sub_diag. cbn. split; [lia | split; [lia | reflexivity]].
  - intros H. apply IH in H. destruct H as (H1 & H2 & H3). split; [lia|]. cbn [length].
    replace (n - p)%nat with (S (n - S p)) by lia. cbn [nth]. split; [lia | exact H3].
Qed.

Lemma nl_pos_none l i : nl_pos l i = None <-> ~ In i l.
Proof. apply nl_pos_from_none. Qed.

Lemma nl_pos_some l i n : nl_pos l i = Some n -> (n < length l)%nat /\ nth n l 0%nat = i.
Proof.
  intros H. apply nl_pos_from_some in H. rewrite Nat.sub_0_r in H. tauto.
Qed.

Lemma nl_remove_pos_facts n l : NoDup l ->
  NoDup (nl_remove_pos n l) /\ (forall k, In k (nl_remove_pos n l) -> In k l) /\
  (forall k, k <> nth n l 0%nat -> In k l -> In k (nl_remove_pos n l)).
Proof.
  intros Hnd. rewrite nl_remove_pos_g. split; [apply remove_pos_NoDup; exact Hnd|]. split; [apply remove_pos_In|].
  intros k Hne Hk. destruct (Nat.lt_ge_cases n (length l)) as [Hn|Hn];
    [apply (remove_pos_In_other _ 0%nat); assumption | rewrite remove_pos_oob by exact Hn; exact Hk].
Qed.

Lemma ss_clearnum_ok : forall eps n s, ss_ok eps s -> ss_ok eps (ss_clearnum n s).
Proof.
  intros eps n s Hok Hs. cbn [ss_clearnum ss_setup] in Hs.
  destruct (ss_ok_elim _ _ Hok Hs) as (Hnd & Hdim & Hc).
  destruct (nl_remove_pos_facts n _ Hnd) as (R1 & R2 & R3).
  unfold ss_clearnum. apply ss_ok_mk; [exact R1 | | | exact Hs].
  - rewrite dv_set_length. rewrite Forall_forall in *. intros k Hk. apply Hdim. apply R2. exact Hk.
  - apply (cov_set eps _ (ss_idx s)); [exact Hc | exact R3 |]. intros C. exfalso. apply C. reflexivity.
Qed.

(* writing a value without touching the index list: fine when the value is 0, is tiny, or its position is indexed *)
Lemma ss_ok_set_val eps s j x : ss_ok eps s -> ss_setup s = true ->
  (~ x == 0 -> In j (ss_idx s) \/ Qabs x <= eps) -> ss_ok eps (mkSS (dv_set (ss_val s) j x) (ss_idx s) true).
Proof.
  intros Hok Hs Hx. destruct (ss_ok_elim _ _ Hok Hs) as (Hnd & Hdim & Hc).
  apply ss_ok_mk; [exact Hnd | rewrite dv_set_length; exact Hdim |].
  apply (cov_set eps _ (ss_idx s)); [exact Hc | auto | exact Hx].
Qed.

Lemma ss_add_ok : forall eps i x s, (i < ss_dim s)%nat -> ~ In i (ss_idx s) -> ss_ok eps s -> ss_ok eps (ss_add i x s).
Proof.
  intros eps i x s Hi Hni Hok Hs. cbn [ss_add ss_setup] in Hs.
  destruct (ss_ok_elim _ _ Hok Hs) as (Hnd & Hdim & Hc).
  unfold ss_add. apply ss_ok_mk; [| | |exact Hs].
  - apply NoDup_snoc; assumption.
  - rewrite dv_set_length. apply Forall_app. split; [exact Hdim | constructor; [exact Hi | constructor]].
  - apply (cov_set eps _ (ss_idx s)); [exact Hc | |].
    + intros k _ Hk. apply in_or_app. left. exact Hk.
    + intros _. left. apply in_or_app. right. left. reflexivity.
Qed.

Lemma ss_setvalue_ok : forall eps i x s, (i < ss_dim s)%nat -> ss_ok eps s -> ss_ok eps (ss_setvalue eps i x s).
Proof.
  intros eps i x s Hi Hok. unfold ss_setvalue. destruct (ss_setup s) eqn:Hs; [|apply ss_ok_unsetup].
  destruct (nl_pos (ss_idx s) i) as [n|] eqn:Hp.
  - apply nl_pos_some in Hp. destruct Hp as [Hn Hni]. destruct (qzero x) eqn:Hz.
    + apply (ss_ok_set_val eps (ss_clearnum n s)); [apply ss_clearnum_ok; exact Hok | exact Hs|].
      intros C. exfalso. apply C, qzero_true, Hz.
    + apply ss_ok_set_val; [exact Hok | exact Hs|]. intros _. left. rewrite <- Hni. apply nth_In. exact Hn.
  - apply nl_pos_none in Hp. destruct (qle_bool (qabs x) eps) eqn:Hq.
    + apply ss_ok_set_val; [exact Hok | exact Hs|]. intros _. right. apply qle_true, Hq.
    + rewrite <- Hs. apply (ss_add_ok eps i x s Hi Hp Hok).
Qed.

Lemma ss_setvalue_val eps i x s j : (i < ss_dim s)%nat ->
  dv_get (ss_val (ss_setvalue eps i x s)) j = if Nat.eqb i j then x else dv_get (ss_val s) j.
Proof.
  intros Hi. unfold ss_setvalue. unfold ss_dim in Hi.
  destruct (ss_setup s); [|cbn [ss_val]; apply dv_get_set; exact Hi].
  destruct (nl_pos (ss_idx s) i) as [n|] eqn:Hp; [|cbn [ss_val]; apply dv_get_set; exact Hi].
  destruct (qzero x); cbn [ss_val ss_clearnum]; [|apply dv_get_set; exact Hi].
  apply nl_pos_some in Hp. destruct Hp as [_ Hni]. rewrite Hni.
  rewrite dv_get_set by (rewrite dv_set_length; exact Hi).
  destruct (Nat.eqb_spec i j) as [E|E]; [reflexivity | apply dv_get_set_other; exact E].
Qed.

Lemma ss_add_val i x s j : (i < ss_dim s)%nat ->
  dv_get (ss_val (ss_add i x s)) j = if Nat.eqb i j then x else dv_get (ss_val s) j.
Proof. intros Hi. cbn [ss_add ss_val]. apply dv_get_set. exact Hi. Qed.

Lemma ss_clearidx_ok : forall eps i s, ss_ok eps s -> ss_ok eps (ss_clearidx i s).
Proof.
  intros eps i s Hok. unfold ss_clearidx. destruct (ss_setup s) eqn:Hs; [|apply ss_ok_unsetup].
  destruct (nl_pos (ss_idx s) i) as [n|] eqn:Hp.
  - apply nl_pos_some in Hp. destruct Hp as [_ <-]. rewrite <- Hs. apply (ss_clearnum_ok eps n s Hok).
  - apply ss_ok_set_val; [exact Hok | exact Hs|]. intros C. exfalso. apply C. reflexivity.
Qed.

Lemma fold_right_set_length (g : nat -> Q) (l : list nat) : forall d,
  length (fold_right (fun i d => dv_set d i (g i)) d l) = length d.
Proof. induction l as [|j r IH]; intros d; cbn [fold_right]; [reflexivity|]. rewrite dv_set_length. apply IH. Qed.

Lemma fold_right_set_get (g : nat -> Q) (l : list nat) : forall d k, (k < length d)%nat ->
  dv_get (fold_right (fun i d => dv_set d i (g i)) d l) k = if memb k l then g k else dv_get d k.
Proof.
  induction l as [|j r IH]; intros d k Hk; cbn [fold_right existsb]; [reflexivity|].
  rewrite (Nat.eqb_sym k j). destruct (Nat.eqb_spec j k) as [E|E]; cbn [orb].
  - subst. apply dv_get_set_same. rewrite fold_right_set_length. exact Hk.
  - rewrite dv_get_set_other by exact E. apply IH. exact Hk.
Qed.

Lemma fold_left_set_length (g : nat -> Q) (l : list nat) : forall d,
  length (fold_left (fun d i => dv_set d i (g i)) l d) = length d.
Proof. induction l as [|j r IH]; intros d; cbn [fold_left]; [reflexivity|]. rewrite IH. apply dv_set_length. Qed.

Lemma fold_left_set_get (g : nat -> Q) (l : list nat) : forall d k, (k < length d)%nat ->
  dv_get (fold_left (fun d i => dv_set d i (g i)) l d) k = if memb k l then g k else dv_get d k.
Proof.
  induction l as [|j r IH]; intros d k Hk; cbn [fold_left existsb]; [reflexivity|].
  rewrite IH by (rewrite dv_set_length; exact Hk). rewrite (Nat.eqb_sym k j).
  destruct (Nat.eqb_spec j k) as [E|E]; cbn [orb].
  - subst. rewrite dv_get_set_same by exact Hk. destruct (memb k r); reflexivity.
  - rewrite dv_get_set_other by exact E. reflexivity.
Qed.

Lemma fold_zero_length (l : list nat) : forall d, length (fold_left (fun d i => dv_set d i 0) l d) = length d.
Proof. exact (fold_left_set_length (fun _ => 0) l). Qed.

Lemma fold_zero_get (l : list nat) : forall d k,
  dv_get (fold_left (fun d i => dv_set d i 0) l d) k = if memb k l then 0 else dv_get d k.
Proof.
  induction l as [|j r IH]; intros d k; cbn [fold_left existsb]; [reflexivity|].
  rewrite IH, dv_get_set0, (Nat.eqb_sym k j). destruct (Nat.eqb j k), (memb k r); reflexivity.
Qed.

Lemma ss_clear_dim s : ss_dim (ss_clear s) = ss_dim s.
Proof.
  unfold ss_clear, ss_dim. destruct (ss_setup s); cbn [ss_val]; [apply fold_zero_length | apply dv_clear_length].
Qed.

Lemma ss_clear_setup s : ss_setup (ss_clear s) = true.
Proof. unfold ss_clear. destruct (ss_setup s); reflexivity. Qed.

Lemma ss_clear_idx s : ss_idx (ss_clear s) = [].
Proof. unfold ss_clear. destruct (ss_setup s); reflexivity. Qed.

Lemma ss_clear_ok : forall eps s, ss_ok eps s -> ss_ok eps (ss_clear s).
Proof.
  intros eps s Hok. unfold ss_clear. destruct (ss_setup s) eqn:Hs.
  - destruct (ss_ok_elim _ _ Hok Hs) as (Hnd & Hdim & Hc).
    apply ss_ok_mk; [constructor | constructor |].
    intros k Hk Hnz. rewrite fold_zero_length in Hk. rewrite fold_zero_get in *.
    destruct (memb_spec k (ss_idx s)) as [Hm|Hm]; [exfalso; apply Hnz; reflexivity|].
    destruct (Hc k Hk Hnz) as [H|H]; [contradiction | right; exact H].
  - apply ss_ok_mk; [constructor | constructor |]. intros k _ Hnz. rewrite dv_get_clear in Hnz.
    exfalso. apply Hnz. reflexivity.
Qed.

Lemma ss_clear_cov eps s k : ss_ok eps s ->
  ~ dv_get (ss_val (ss_clear s)) k == 0 -> Qabs (dv_get (ss_val (ss_clear s)) k) <= eps.
Proof.
  intros Hok Hnz. destruct (ss_ok_elim _ _ (ss_clear_ok eps s Hok) (ss_clear_setup s)) as (_ & _ & Hc).
  rewrite ss_clear_idx in Hc. destruct (cov_total _ _ _ k Hc Hnz) as [[]|H]. exact H.
Qed.

Lemma ss_clear_val : forall s i, ss_ok 0 s -> dv_get (ss_val (ss_clear s)) i == 0.
Proof.
  intros s i Hok. unfold ss_clear. destruct (ss_setup s) eqn:Hs; cbn [ss_val]; [|rewrite dv_get_clear; reflexivity].
  rewrite fold_zero_get. destruct (memb_spec i (ss_idx s)) as [Hm|Hm]; [reflexivity | apply ss_ok0_notin; assumption].
Qed.

Lemma fold_scale_length x (l : list nat) : forall d,
  length (fold_right (fun i d => dv_upd d i (fun y => y * x)) d l) = length d.
Proof. intros d. apply (dv_fold_right_upd_length (fun i => i) (fun _ y => y * x)). Qed.

Lemma fold_scale_get x (l : list nat) : forall d k, NoDup l -> Forall (fun i => (i < length d)%nat) l ->
  dv_get (fold_right (fun i d => dv_upd d i (fun y => y * x)) d l) k
  = if memb k l then dv_get d k * x else dv_get d k.
Proof.
  intros d k Hnd Hdim. rewrite <- (map_id l) at 2.
  apply (dv_fold_right_upd_get (fun i => i) (fun _ y => y * x) (fun _ y => y * x)); [rewrite map_id; exact Hnd | exact Hdim | reflexivity].
Qed.

Lemma ss_scale_ok : forall eps x s, ss_ok eps s -> ss_ok eps (ss_scale x s).
Proof.
  intros eps x s Hok Hs. cbn [ss_scale ss_setup] in Hs.
  destruct (ss_ok_elim _ _ Hok Hs) as (Hnd & Hdim & Hc).
  unfold ss_scale. apply ss_ok_mk; [exact Hnd | rewrite fold_scale_length; exact Hdim | | exact Hs].
  intros k Hk Hnz. rewrite fold_scale_length in Hk. rewrite fold_scale_get in * by assumption.
  destruct (memb_spec k (ss_idx s)) as [Hm|Hm]; [left; exact Hm|]. apply Hc; assumption.
Qed.

Lemma ss_scale_val0 : forall x s i, ss_ok 0 s -> ss_setup s = true ->
  dv_get (ss_val (ss_scale x s)) i == dv_get (ss_val s) i * x.
Proof.
  intros x s i Hok Hs. destruct (ss_ok_elim _ _ Hok Hs) as (Hnd & Hdim & Hc).
  cbn [ss_scale ss_val]. rewrite fold_scale_get by assumption.
  destruct (memb_spec i (ss_idx s)) as [Hm|Hm]; [reflexivity|]. rewrite (ss_ok0_notin s i Hok Hs Hm). ring.
Qed.

Lemma ss_add_dv_ok : forall eps w s, 0 <= eps -> ss_ok eps (ss_add_dv eps w s).
Proof. intros. apply ss_resetup_ok. assumption. Qed.
Lemma ss_sub_dv_ok : forall eps w s, 0 <= eps -> ss_ok eps (ss_sub_dv eps w s).
Proof. intros. apply ss_resetup_ok. assumption. Qed.
Lemma ss_multadd_dv_ok : forall eps x w s, 0 <= eps -> ss_ok eps (ss_multadd_dv eps x w s).
Proof. intros. apply ss_resetup_ok. assumption. Qed.
Lemma ss_add_sv_ok : forall eps v s, 0 <= eps -> ss_ok eps (ss_add_sv eps v s).
Proof. intros. apply ss_resetup_ok. assumption. Qed.
Lemma ss_sub_sv_ok : forall eps v s, 0 <= eps -> ss_ok eps (ss_sub_sv eps v s).
Proof. intros. apply ss_resetup_ok. assumption. Qed.
Lemma ss_add_ss_ok : forall eps w s, 0 <= eps -> ss_ok eps (ss_add_ss eps w s).
Proof. intros. apply ss_resetup_ok. assumption. Qed.
Lemma ss_sub_ss_ok : forall eps w s, 0 <= eps -> ss_ok eps (ss_sub_ss eps w s).
Proof. intros eps w s He. unfold ss_sub_ss. destruct (ss_setup w); apply ss_resetup_ok; exact He. Qed.

Lemma ss_resetup_mk_get0 d idx b i : dv_get (ss_val (ss_resetup 0 (mkSS d idx b))) i == dv_get d i.
Proof. exact (dv_eq_get _ _ (ss_resetup_val0 _) i). Qed.

Lemma ss_add_dv_val0 : forall w s i, length w = ss_dim s ->
  dv_get (ss_val (ss_add_dv 0 w s)) i == dv_get (ss_val s) i + dv_get w i.
Proof.
  intros w s i Hl. unfold ss_add_dv. rewrite ss_resetup_mk_get0.
  apply dv_add_get. symmetry. exact Hl.
Qed.

Lemma ss_sub_dv_val0 : forall w s i, length w = ss_dim s ->
  dv_get (ss_val (ss_sub_dv 0 w s)) i == dv_get (ss_val s) i - dv_get w i.
Proof.
  intros w s i Hl. unfold ss_sub_dv. rewrite ss_resetup_mk_get0.
  apply dv_sub_get. symmetry. exact Hl.
Qed.

Lemma ss_multadd_dv_val0 : forall x w s i, length w = ss_dim s ->
  dv_get (ss_val (ss_multadd_dv 0 x w s)) i == dv_get (ss_val s) i + x * dv_get w i.
Proof.
  intros x w s i Hl. unfold ss_multadd_dv. rewrite ss_resetup_mk_get0.
  apply dv_multadd_get. symmetry. exact Hl.
Qed.

Lemma ss_add_sv_val0 : forall v s i, sv_nodup v -> sv_in_dim (ss_dim s) v ->
  dv_get (ss_val (ss_add_sv 0 v s)) i == dv_get (ss_val s) i + sv_get v i.
Proof.
  intros v s i Hnd Hdim. unfold ss_add_sv. rewrite ss_resetup_mk_get0.
  apply dv_add_sv_get; assumption.
Qed.

Lemma ss_sub_sv_val0 : forall v s i, ss_ok 0 s -> sv_nodup v -> sv_in_dim (ss_dim s) v ->
  dv_get (ss_val (ss_sub_sv 0 v s)) i == dv_get (ss_val s) i - sv_get v i.
Proof.
  intros v s i _ Hnd Hdim. unfold ss_sub_sv. rewrite ss_resetup_mk_get0.
  apply dv_sub_sv_get; assumption.
Qed.

(* the indexed entries of a semi-sparse vector as a sparse vector *)
Lemma ss_entries_indices s : sv_indices (ss_entries s) = ss_idx s.
Proof. unfold sv_indices, ss_entries. rewrite map_map. cbn [fst]. apply map_id. Qed.

Lemma ss_entries_get s i :
  sv_get (ss_entries s) i = if memb i (ss_idx s) then dv_get (ss_val s) i else 0.
Proof.
  unfold ss_entries. induction (ss_idx s) as [|j r IH]; cbn [map sv_get existsb]; [reflexivity|].
  rewrite (Nat.eqb_sym i j). destruct (Nat.eqb_spec j i) as [E|E]; cbn [orb]; [subst; reflexivity | exact IH].
Qed.

Lemma ss_entries_nodup eps s : ss_ok eps s -> ss_setup s = true -> sv_nodup (ss_entries s).
Proof.
  intros Hok Hs. unfold sv_nodup. rewrite ss_entries_indices. apply (ss_ok_elim _ _ Hok Hs).
Qed.

Lemma ss_entries_in_dim eps s : ss_ok eps s -> ss_setup s = true -> sv_in_dim (ss_dim s) (ss_entries s).
Proof. intros Hok Hs. apply sv_in_dim_iff. rewrite ss_entries_indices. apply (ss_ok_elim _ _ Hok Hs). Qed.

Lemma ss_entries_get0 s i : ss_ok 0 s -> ss_setup s = true -> sv_get (ss_entries s) i == dv_get (ss_val s) i.
Proof.
  intros Hok Hs. rewrite ss_entries_get. destruct (memb_spec i (ss_idx s)) as [Hm|Hm]; [reflexivity|].
  symmetry. apply ss_ok0_notin; assumption.
Qed.

Lemma ss_add_ss_val0 : forall w s i, ss_ok 0 w -> ss_setup w = true -> ss_dim w = ss_dim s ->
  dv_get (ss_val (ss_add_ss 0 w s)) i == dv_get (ss_val s) i + dv_get (ss_val w) i.
Proof.
  intros w s i Hok Hs Hd. unfold ss_add_ss. rewrite ss_add_sv_val0, ss_entries_get0; try assumption; [reflexivity | |].
  - apply (ss_entries_nodup 0); assumption.
  - rewrite <- Hd. apply (ss_entries_in_dim 0); assumption.
Qed.

Lemma ss_sub_ss_val0 : forall w s i, ss_ok 0 w -> ss_dim w = ss_dim s ->
  dv_get (ss_val (ss_sub_ss 0 w s)) i == dv_get (ss_val s) i - dv_get (ss_val w) i.
Proof.
  intros w s i Hok Hd. unfold ss_sub_ss. destruct (ss_setup w) eqn:Hs.
  - unfold ss_sub_sv. rewrite ss_resetup_mk_get0.
    rewrite dv_sub_sv_get.
    + rewrite ss_entries_get0 by assumption. reflexivity.
    + apply (ss_entries_nodup 0); assumption.
    + fold (ss_dim s). rewrite <- Hd. apply (ss_entries_in_dim 0); assumption.
  - apply ss_sub_dv_val0. exact Hd.
Qed.

(* operator=(SVectorBase) stores tiny_val of each entry (tiny_map) and indexes the entries that are not tiny (big_filter) *)
Definition tiny_map (eps : Q) (v : svec) : svec := map (fun e => (fst e, tiny_val eps (snd e))) v.
Definition big_filter (eps : Q) (v : svec) : svec := filter (fun e => negb (qle_bool (qabs (snd e)) eps)) v.

Lemma ss_assign_fold eps v : forall d idx,
  fold_left (ss_assign_step eps) v (d, idx) =
  (fold_left (fun acc e => dv_set acc (fst e) (snd e)) (tiny_map eps v) d, idx ++ sv_indices (big_filter eps v)).
Proof.
  induction v as [|e r IH]; intros d idx.
  - cbn. rewrite app_nil_r. reflexivity.
  - cbn [fold_left ss_assign_step]. unfold tiny_map, big_filter. cbn [map filter fst snd].
    fold (tiny_map eps r). fold (big_filter eps r). unfold tiny_val at 1.
    destruct (qle_bool (qabs (snd e)) eps) eqn:Hq; cbn [negb]; rewrite IH; [reflexivity|].
    unfold sv_indices. cbn [map]. rewrite <- app_assoc. reflexivity.
Qed.

Lemma sv_get_map_val (g : Q -> Q) v i :
  sv_get (map (fun e => (fst e, g (snd e))) v) i = if memb i (sv_indices v) then g (sv_get v i) else 0.
Proof.
  induction v as [|[j x] r IH]; [reflexivity|].
  change (sv_indices ((j, x) :: r)) with (j :: sv_indices r). cbn [map sv_get fst snd existsb].
  rewrite (Nat.eqb_sym i j). destruct (Nat.eqb j i); cbn [orb]; [reflexivity | exact IH].
Qed.

Lemma tiny_map_indices eps v : sv_indices (tiny_map eps v) = sv_indices v.
Proof. unfold sv_indices, tiny_map. rewrite map_map. reflexivity. Qed.

Lemma ss_set_sv_eq eps v s :
  ss_set_sv eps v s = mkSS (fold_left (fun acc e => dv_set acc (fst e) (snd e)) (tiny_map eps v) (ss_val (ss_clear s)))
                           (sv_indices (big_filter eps v)) true.
Proof. unfold ss_set_sv. rewrite ss_assign_fold. reflexivity. Qed.

Lemma ss_set_sv_get eps v s k : sv_nodup v -> sv_in_dim (ss_dim s) v ->
  dv_get (ss_val (ss_set_sv eps v s)) k =
  if memb k (sv_indices v) then tiny_val eps (sv_get v k) else dv_get (ss_val (ss_clear s)) k.
Proof.
  intros Hnd Hdim. rewrite ss_set_sv_eq. cbn [ss_val]. rewrite dv_fold_set_get.
  - rewrite tiny_map_indices. unfold tiny_map. rewrite sv_get_map_val. destruct (memb k (sv_indices v)); reflexivity.
  - unfold sv_nodup. rewrite tiny_map_indices. exact Hnd.
  - fold (ss_dim (ss_clear s)). rewrite ss_clear_dim. apply sv_in_dim_iff. rewrite tiny_map_indices.
    apply sv_in_dim_iff, Hdim.
Qed.

Lemma ss_set_sv_dim eps v s : ss_dim (ss_set_sv eps v s) = ss_dim s.
Proof. rewrite ss_set_sv_eq. unfold ss_dim at 1. cbn [ss_val]. rewrite dv_fold_set_length. apply ss_clear_dim. Qed.

Lemma ss_set_sv_idx eps v s : ss_idx (ss_set_sv eps v s) = sv_indices (big_filter eps v).
Proof. rewrite ss_set_sv_eq. reflexivity. Qed.

Lemma ss_set_sv_setup eps v s : ss_setup (ss_set_sv eps v s) = true.
Proof. rewrite ss_set_sv_eq. reflexivity. Qed.

Lemma ss_set_sv_ok : forall eps v s, ss_ok eps s -> sv_nodup v -> sv_in_dim (ss_dim s) v ->
  ss_ok eps (ss_set_sv eps v s).
Proof.
  intros eps v s Hok Hnd Hdim _. rewrite ss_set_sv_idx, ss_set_sv_dim. split; [|split].
  - apply sv_filter_nodup. exact Hnd.
  - apply sv_in_dim_iff, sv_filter_in_dim, Hdim.
  - intros k Hk Hnz. rewrite ss_set_sv_get in * by assumption.
    destruct (memb_spec k (sv_indices v)) as [Hm|Hm].
    + unfold tiny_val in *. destruct (qle_bool (qabs (sv_get v k)) eps) eqn:Hq.
      * exfalso. apply Hnz. reflexivity.
      * left. apply sv_filter_indices_iff; [exact Hnd|]. split; [exact Hm|]. cbn [snd]. rewrite Hq. reflexivity.
    + right. apply ss_clear_cov; assumption.
Qed.

Lemma ss_set_sv_val0 : forall v s, ss_ok 0 s -> sv_nodup v -> sv_in_dim (ss_dim s) v ->
  dv_eq (ss_val (ss_set_sv 0 v s)) (expand (ss_dim s) v).
Proof.
  intros v s Hok Hnd Hdim. symmetry. apply expand_eq; [apply ss_set_sv_dim|]. intros k _.
  rewrite ss_set_sv_get by assumption. destruct (memb_spec k (sv_indices v)) as [Hm|Hm]; [symmetry; apply tiny_val0|].
  rewrite (sv_get_notin v k Hm), ss_clear_val by exact Hok. reflexivity.
Qed.

Lemma ss_redim_dim n s : ss_dim (ss_redim n s) = n.
Proof. apply dv_redim_length. Qed.

Lemma ss_redim_val n s i : dv_get (ss_val (ss_redim n s)) i = if Nat.ltb i n then dv_get (ss_val s) i else 0.
Proof. apply dv_redim_get. Qed.

(* the index loop of reDim: positions size-1 .. 0, an index >= n is removed by moving the last one into its place *)
Lemma redim_fold n : forall pre K,
  Permutation (fold_left (fun l p => if Nat.leb n (nth p l 0%nat) then nl_remove_pos p l else l)
                         (rev (seq 0 (length pre))) (pre ++ K))
              (filter (fun i => Nat.ltb i n) pre ++ K).
Proof.
  induction pre as [|e pre' IH] using rev_ind; intros K; [reflexivity|].
  rewrite app_length. cbn [length]. rewrite Nat.add_1_r, seq_S. cbn [plus]. rewrite rev_app_distr.
  cbn [rev app fold_left]. rewrite <- app_assoc. cbn [app]. rewrite nth_middle.
  rewrite filter_app. cbn [filter]. destruct (Nat.leb_spec n e) as [Hge|Hlt].
  - replace (Nat.ltb e n) with false by (symmetry; apply Nat.ltb_ge; exact Hge). rewrite app_nil_r.
    rewrite nl_remove_pos_g. induction K as [|lst K' _] using rev_ind.
    + rewrite remove_pos_app_last. rewrite <- (app_nil_r pre') at 2. apply IH.
    + rewrite remove_pos_app_mid. rewrite IH. apply Permutation_app_head. apply Permutation_cons_append.
  - replace (Nat.ltb e n) with true by (symmetry; apply Nat.ltb_lt; exact Hlt).
    rewrite IH. rewrite <- app_assoc. reflexivity.
Qed.

Lemma ss_redim_idx_perm : forall n s,
  Permutation (ss_idx (ss_redim n s)) (filter (fun i => Nat.ltb i n) (ss_idx s)).
Proof.
  intros n s. cbn [ss_redim ss_idx]. pose proof (redim_fold n (ss_idx s) []) as H.
  rewrite !app_nil_r in H. exact H.
Qed.

Lemma ss_redim_ok : forall eps n s, ss_ok eps s -> ss_ok eps (ss_redim n s).
Proof.
  intros eps n s Hok Hs. cbn [ss_redim ss_setup] in Hs.
  destruct (ss_ok_elim _ _ Hok Hs) as (Hnd & Hdim & Hc).
  pose proof (ss_redim_idx_perm n s) as Hp. cbn [ss_redim ss_idx] in Hp.
  unfold ss_redim. apply ss_ok_mk; [| | | exact Hs].
  - apply Permutation_sym in Hp. apply (Permutation_NoDup Hp). apply NoDup_filter. exact Hnd.
  - rewrite dv_redim_length. apply Forall_forall. intros k Hk. apply (Permutation_in _ Hp) in Hk.
    apply filter_In in Hk. destruct Hk as [_ Hk]. apply Nat.ltb_lt in Hk. exact Hk.
  - intros k Hk Hnz. rewrite dv_redim_length in Hk. rewrite dv_redim_get in *.
    pose proof Hk as Hk'. apply Nat.ltb_lt in Hk'. rewrite Hk' in *.
    destruct (cov_total _ _ _ k Hc Hnz) as [H1|H1]; [|right; exact H1].
    left. apply Permutation_sym in Hp. apply (Permutation_in _ Hp). apply filter_In. split; [exact H1 | exact Hk'].
Qed.

(* the sum of f over an index list *)
Definition lsum (f : nat -> Q) (l : list nat) : Q := fold_right (fun i s => f i + s) 0 l.

Lemma lsum_cons f i l : lsum f (i :: l) = f i + lsum f l.
Proof. reflexivity. Qed.

Lemma lsum_ext_in f g l : (forall i, In i l -> f i == g i) -> lsum f l == lsum g l.
Proof.
  induction l as [|a l IH]; intros H; [reflexivity|]. rewrite !lsum_cons.
  rewrite (H a) by (left; reflexivity). rewrite IH; [reflexivity|].
  intros i Hi. apply H. right. exact Hi.
Qed.

Lemma lsum_app f l1 l2 : lsum f (l1 ++ l2) == lsum f l1 + lsum f l2.
Proof.
  induction l1 as [|a l IH]; cbn [app]; [unfold lsum at 2; cbn; ring|]. rewrite !lsum_cons, IH. ring.
Qed.

Lemma lsum_rev f l : lsum f (rev l) == lsum f l.
Proof.
  induction l as [|a l IH]; [reflexivity|]. cbn [rev]. rewrite lsum_app, IH, !lsum_cons.
  unfold lsum at 2. cbn [fold_right]. ring.
Qed.

Lemma ss_dot_ss_lsum a b :
  ss_dot_ss a b == lsum (fun i => dv_get (ss_val a) i * dv_get (ss_val b) i) (ss_idx a).
Proof.
  unfold ss_dot_ss, ss_entries. induction (ss_idx a) as [|i r IH]; [reflexivity|].
  cbn [map sv_dot_dv]. rewrite lsum_cons, IH. reflexivity.
Qed.

Lemma ss_entries_expand0 s : ss_ok 0 s -> ss_setup s = true ->
  dv_eq (expand (ss_dim s) (ss_entries s)) (ss_val s).
Proof.
  intros Hok Hs. apply expand_eq; [reflexivity|]. intros k _. apply ss_entries_get0; assumption.
Qed.

Lemma ss_dot_ss_spec : forall a b, ss_ok 0 a -> ss_setup a = true ->
  ss_dot_ss a b == dv_dot (ss_val a) (ss_val b).
Proof.
  intros a b Hok Hs. unfold ss_dot_ss.
  rewrite (sv_dot_dv_spec (ss_dim a) (ss_entries a) (ss_val b)).
  - apply dv_dot_eq; [apply ss_entries_expand0; assumption | reflexivity].
  - apply (ss_entries_nodup 0); assumption.
  - apply (ss_entries_in_dim 0); assumption.
Qed.

Lemma sv_of_ss_expand : forall w, ss_ok 0 w -> ss_setup w = true ->
  dv_eq (expand (ss_dim w) (sv_of_ss w)) (ss_val w).
Proof.
  intros w Hok Hs. apply expand_eq; [reflexivity|]. intros k _.
  change (sv_of_ss w) with (sv_assign (ss_entries w)).
  rewrite sv_assign_get by (apply (ss_entries_nodup 0); assumption). apply ss_entries_get0; assumption.
Qed.

Lemma sv_of_ss_nodup eps w : ss_ok eps w -> ss_setup w = true -> sv_nodup (sv_of_ss w).
Proof. intros Hok Hs. apply sv_filter_nodup. apply (ss_entries_nodup eps); assumption. Qed.

Lemma sv_of_ss_nonzero w : sv_nonzero (sv_of_ss w).
Proof. apply sv_assign_nonzero. Qed.

Lemma ss_merge_rev_nil_r da db ia : ss_merge_rev da db ia [] = 0.
Proof. destruct ia; reflexivity. Qed.

(* strictly descending: the reversed index lists the merge of SSVectorBase * SSVectorBase walks *)
Definition sdesc (l : list nat) : Prop := StronglySorted (fun a b : nat => (b < a)%nat) l.

Lemma ss_merge_rev_sum da db : forall ia, sdesc ia -> forall ib, sdesc ib ->
  ss_merge_rev da db ia ib == lsum (fun i => if memb i ib then dv_get da i * dv_get db i else 0) ia.
Proof.
  intros ia Ha ib Hb. etransitivity.
  { apply (merge_join_sum _ _ (fun i => i) (fun j => j) (fun a b => (b < a)%nat) (fun x y => Nat.ltb y x)
             (fun i j => dv_get da i * dv_get db j) (ss_merge_rev da db)); try reflexivity;
      [intros; apply Nat.ltb_lt | intros; lia | intros; lia | intros; lia | apply ss_merge_rev_nil_r
       | rewrite map_id; exact Ha | rewrite map_id; exact Hb]. }
  clear. induction ia as [|i r IH]; [reflexivity|].
  rewrite join_sum_cons, IH, lsum_cons. apply Qplus_comp; [|reflexivity]. clear IH.
  induction ib as [|j w IHb]; cbn [join_pick existsb]; [reflexivity|].
  destruct (Nat.eqb_spec i j) as [->|E]; [reflexivity | exact IHb].
Qed.

Lemma sdesc_snoc l a : sdesc l -> Forall (fun x => (a < x)%nat) l -> sdesc (l ++ [a]).
Proof.
  unfold sdesc. induction 1 as [|b l Hs IH Hall]; intros Hf; cbn [app].
  - constructor; constructor.
  - inversion Hf; subst. constructor; [apply IH; assumption|].
    apply Forall_app. split; [exact Hall | constructor; [assumption | constructor]].
Qed.

Lemma sorted_lt_rev l : StronglySorted lt l -> sdesc (rev l).
Proof.
  induction 1 as [|a l Hs IH Hall]; cbn [rev]; [constructor|]. apply sdesc_snoc; [exact IH|].
  rewrite Forall_forall in *. intros k Hk. apply in_rev in Hk. apply Hall. exact Hk.
Qed.

Lemma ss_dot_merge_spec : forall a b, ss_ok 0 b -> ss_setup b = true ->
  StronglySorted lt (ss_idx a) -> StronglySorted lt (ss_idx b) -> ss_dot_merge a b == ss_dot_ss a b.
Proof.
  intros a b Hokb Hsb Hsa Hsb'. unfold ss_dot_merge.
  rewrite ss_merge_rev_sum by (apply sorted_lt_rev; assumption).
  rewrite lsum_rev, ss_dot_ss_lsum. apply lsum_ext_in. intros k _.
  destruct (memb_spec k (rev (ss_idx b))) as [Hm|Hm]; [reflexivity|]. rewrite <- in_rev in Hm.
  rewrite (ss_ok0_notin b k Hokb Hsb Hm). ring.
Qed.

(* entry j of x^T times the matrix with these rows: the sum over the rows i of x_i * rows_i[j] *)
Definition rows_sum (x : dvec) (rows : list svec) (j : nat) : Q :=
  lsum (fun i => dv_get x i * sv_get (nth i rows []) j) (seq 0 (length rows)).

Lemma rows_fold_length x (l : list (nat * svec)) : forall acc,
  length (fold_left (fun acc ir => dv_multadd_sv (dv_get x (fst ir)) (snd ir) acc) l acc) = length acc.
Proof.
  induction l as [|ir l IH]; intros acc; cbn [fold_left]; [reflexivity|].
  rewrite IH. apply dv_multadd_sv_length.
Qed.

Lemma rows_fold_get x (l : list (nat * svec)) : forall acc j,
  Forall (fun ir => sv_nodup (snd ir) /\ sv_in_dim (length acc) (snd ir)) l ->
  dv_get (fold_left (fun acc ir => dv_multadd_sv (dv_get x (fst ir)) (snd ir) acc) l acc) j
  == dv_get acc j + fold_right (fun ir t => dv_get x (fst ir) * sv_get (snd ir) j + t) 0 l.
Proof.
  induction l as [|ir l IH]; intros acc j H; cbn [fold_left fold_right]; [ring|].
  inversion H as [|? ? [Hnd Hdim] Hl]; subst. rewrite IH.
  - rewrite dv_multadd_sv_get by assumption. ring.
  - rewrite dv_multadd_sv_length. exact Hl.
Qed.

Lemma combine_seq_sum (g : nat -> svec -> Q) rows : forall s,
  fold_right (fun ir t => g (fst ir) (snd ir) + t) 0 (combine (seq s (length rows)) rows)
  == lsum (fun i => g i (nth (i - s) rows [])) (seq s (length rows)).
Proof.
  induction rows as [|r rows IH]; intros s; [reflexivity|].
  cbn [length seq combine fold_right fst snd]. rewrite lsum_cons. rewrite Nat.sub_diag. cbn [nth].
  apply Qplus_comp; [reflexivity|]. rewrite IH. apply lsum_ext_in. intros i Hi. apply in_seq in Hi.
  replace (i - s)%nat with (S (i - S s)) by lia. reflexivity.
Qed.

Lemma rows_tmul_length : forall n x rows, length (rows_tmul n x rows) = n.
Proof. intros n x rows. unfold rows_tmul. rewrite rows_fold_length. apply dv_zero_length. Qed.

Lemma rows_tmul_get : forall n x rows j, (forall r, In r rows -> sv_nodup r /\ sv_in_dim n r) ->
  dv_get (rows_tmul n x rows) j == rows_sum x rows j.
Proof.
  intros n x rows j H. unfold rows_tmul, rows_sum. rewrite rows_fold_get.
  - rewrite dv_get_zero. pose proof (combine_seq_sum (fun i r => dv_get x i * sv_get r j) rows 0) as E.
    cbv beta in E. rewrite E. rewrite Qplus_0_l. apply lsum_ext_in. intros i _. rewrite Nat.sub_0_r. reflexivity.
  - apply Forall_forall. intros [i r] Hir. apply in_combine_r in Hir. cbn [snd]. rewrite dv_zero_length.
    apply H. exact Hir.
Qed.

Lemma ss_ok_weaken eps eps' s : eps <= eps' -> ss_ok eps s -> ss_ok eps' s.
Proof.
  intros Hle Hok Hs. destruct (Hok Hs) as (H1 & H2 & H3). split; [exact H1|]. split; [exact H2|].
  intros i Hi Hnz. destruct (H3 i Hi Hnz) as [H|H]; [left; exact H | right].
  apply (Qle_trans _ eps); assumption.
Qed.

Lemma fold_tiny_length eps (l : list nat) : forall d,
  length (fold_left (fun d' k => if qle_bool (qabs (dv_get d' k)) eps then dv_set d' k 0 else d') l d) = length d.
Proof.
  induction l as [|j r IH]; intros d; cbn [fold_left]; [reflexivity|]. rewrite IH.
  destruct (qle_bool (qabs (dv_get d j)) eps); [apply dv_set_length | reflexivity].
Qed.

(* the adjust pass: indexed entries with |value| <= eps become exact zeros, nothing else changes *)
Lemma fold_tiny_get eps (l : list nat) : forall d k,
  dv_get (fold_left (fun d' k => if qle_bool (qabs (dv_get d' k)) eps then dv_set d' k 0 else d') l d) k
  = if memb k l && qle_bool (qabs (dv_get d k)) eps then 0 else dv_get d k.
Proof.
  induction l as [|j r IH]; intros d k; cbn [fold_left existsb]; [reflexivity|].
  rewrite IH, (Nat.eqb_sym k j). destruct (qle_bool (qabs (dv_get d j)) eps) eqn:Hq; [rewrite !dv_get_set0|];
    (destruct (Nat.eqb_spec j k) as [<-|E]; cbn [orb]; [rewrite Hq | reflexivity]).
  - destruct (memb j r && _); reflexivity.
  - rewrite !andb_false_r. reflexivity.
Qed.

Definition ss_idx_nonzero (s : ssvec) : Prop := forall i, In i (ss_idx s) -> ~ dv_get (ss_val s) i == 0.

Lemma filter_neq_notin j l : memb j l = false -> filter (fun k => negb (Nat.eqb j k)) l = l.
Proof.
  induction l as [|a l IH]; cbn [existsb filter]; [reflexivity|].
  destruct (Nat.eqb j a); [discriminate|]. intros H. cbn [negb]. rewrite (IH H). reflexivity.
Qed.

(* What multAdd does with one entry (j, y) of vec, as functions of the value old it finds at position j: the value it
   leaves there, whether j joins the index list (a zero becomes a value that is not tiny), whether j is marked (a
   non-zero cancels to a tiny value). *)
Definition ma_val (eps x old y : Q) : Q :=
  if qzero old then (if qle_bool (qabs (x * y)) eps then old else x * y) else tiny_val eps (old + x * y).
Definition ma_new (eps x old y : Q) : bool := qzero old && negb (qle_bool (qabs (x * y)) eps).
Definition ma_cancel (eps x old y : Q) : bool := negb (qzero old) && qle_bool (qabs (old + x * y)) eps.

Lemma ss_multadd_step_eq eps x j y d idx marked : memb j marked = false ->
  ss_multadd_step eps x (j, y) (d, idx, marked) =
  (dv_upd d j (fun old => ma_val eps x old y),
   if ma_new eps x (dv_get d j) y then idx ++ [j] else idx,
   if ma_cancel eps x (dv_get d j) y then j :: marked else marked).
Proof.
  intros H. unfold ss_multadd_step, dv_upd, ma_val, ma_new, ma_cancel, tiny_val. cbn [fst snd]. rewrite H, orb_false_r.
  destruct (qzero (dv_get d j)); cbn [negb andb].
  - destruct (qle_bool (qabs (x * y)) eps); cbn [negb]; [rewrite dv_set_same|]; reflexivity.
  - destruct (qle_bool _ eps); [|rewrite filter_neq_notin by exact H]; reflexivity.
Qed.

(* The loop of multAdd over a vec without duplicate indices meets every position at most once and never a marked one,
   so its three results have closed forms in terms of the values d0 before the call. *)
Definition ma_vals (eps x : Q) (d0 : dvec) (v : svec) : dvec :=
  fold_right (fun e acc => dv_upd acc (fst e) (fun old => ma_val eps x old (snd e))) d0 v.
Definition ma_idx (eps x : Q) (d0 : dvec) (v : svec) : list nat :=
  rev (sv_indices (filter (fun e => ma_new eps x (dv_get d0 (fst e)) (snd e)) v)).
Definition ma_marked (eps x : Q) (d0 : dvec) (v : svec) : list nat :=
  sv_indices (filter (fun e => ma_cancel eps x (dv_get d0 (fst e)) (snd e)) v).

Lemma ma_vals_length eps x d0 v : length (ma_vals eps x d0 v) = length d0.
Proof. apply (dv_fold_right_upd_length fst (fun e old => ma_val eps x old (snd e))). Qed.

Lemma ma_vals_get eps x d0 v k : sv_nodup v -> sv_in_dim (length d0) v ->
  dv_get (ma_vals eps x d0 v) k
  = if memb k (sv_indices v) then ma_val eps x (dv_get d0 k) (sv_get v k) else dv_get d0 k.
Proof. apply (dv_fold_op_get (ma_val eps x)). Qed.

Lemma ma_idx_In eps x d0 v k : sv_nodup v ->
  In k (ma_idx eps x d0 v) <-> In k (sv_indices v) /\ ma_new eps x (dv_get d0 k) (sv_get v k) = true.
Proof. intros Hnd. unfold ma_idx. rewrite <- in_rev. apply sv_filter_indices_iff, Hnd. Qed.

Lemma ss_multadd_fold_eq eps x d0 idx0 v : sv_nodup v -> sv_in_dim (length d0) v ->
  fold_right (ss_multadd_step eps x) (d0, idx0, []) v = (ma_vals eps x d0 v, idx0 ++ ma_idx eps x d0 v, ma_marked eps x d0 v).
Proof.
  unfold sv_nodup, ma_vals, ma_idx, ma_marked. induction v as [|[j y] r IH]; intros Hnd Hdim; [cbn; rewrite app_nil_r; reflexivity|].
  change (sv_indices ((j, y) :: r)) with (j :: sv_indices r) in Hnd.
  inversion Hnd as [|? ? Hnotin Hnd']; subst. inversion Hdim as [|? ? Hj Hdim']; subst.
  cbn [fold_right filter fst snd]. rewrite (IH Hnd' Hdim'), ss_multadd_step_eq.
  - rewrite (dv_fold_op_get (ma_val eps x) r d0 j Hnd' Hdim'), (proj2 (memb_notIn j _) Hnotin).
    destruct (ma_new eps x (dv_get d0 j) y), (ma_cancel eps x (dv_get d0 j) y); cbn [sv_indices map rev fst];
      rewrite ?app_assoc; reflexivity.
  - apply memb_notIn. intros C. apply sv_filter_indices_in in C. contradiction.
Qed.

Lemma not_tiny_nonzero eps z : 0 <= eps -> qle_bool (qabs z) eps = false -> ~ z == 0.
Proof.
  intros He Hq C. apply qle_false in Hq. apply Hq. unfold qabs. rewrite C. exact He.
Qed.

(* the index list is exactly the support: the state setup() produces and multAdd keeps *)
Definition exact_supp (d : dvec) (idx : list nat) : Prop := NoDup idx /\ forall k, In k idx <-> ~ dv_get d k == 0.

Lemma exact_supp_of_ok s : ss_ok 0 s -> ss_setup s = true -> ss_idx_nonzero s -> exact_supp (ss_val s) (ss_idx s).
Proof.
  intros Hok Hs Hnz. split; [apply (ss_ok_elim _ _ Hok Hs)|]. intros k. split; [apply Hnz | apply ss_ok0_in; assumption].
Qed.

Lemma exact_supp_ok d idx : exact_supp d idx -> ss_ok 0 (mkSS d idx true) /\ ss_idx_nonzero (mkSS d idx true).
Proof.
  intros [Hnd H]. split; [apply ss_ok_mk; [exact Hnd | |] | intros k; apply (H k)].
  - apply Forall_forall. intros k Hk. apply dv_get_nz_lt, H, Hk.
  - intros k _ Hk. left. apply H, Hk.
Qed.

(* After the loop on a vector whose index list is exactly its support every non-zero is indexed, and an indexed zero
   is one that was marked: one case analysis per position k (met by the loop? old value zero? result tiny?). *)
Lemma ss_multadd_loop_exact eps x d0 idx0 v : 0 <= eps -> exact_supp d0 idx0 -> sv_nodup v -> sv_in_dim (length d0) v ->
  NoDup (idx0 ++ ma_idx eps x d0 v) /\
  forall k, (~ dv_get (ma_vals eps x d0 v) k == 0 -> In k (idx0 ++ ma_idx eps x d0 v)) /\
            (In k (idx0 ++ ma_idx eps x d0 v) -> dv_get (ma_vals eps x d0 v) k == 0 -> In k (ma_marked eps x d0 v)).
Proof.
  intros He [Hnd0 Hx] Hnd Hdim. split.
  - apply NoDup_app_iff. split; [exact Hnd0|]. split; [apply NoDup_rev, sv_filter_nodup, Hnd|].
    intros k Hk C. apply ma_idx_In in C; [|exact Hnd]. destruct C as [_ C]. apply andb_true_iff in C.
    apply (proj1 (Hx k) Hk), qzero_true, C.
  - intros k. rewrite in_app_iff, ma_idx_In, Hx, ma_vals_get by assumption.
    destruct (memb_spec k (sv_indices v)) as [Hm|Hm]; [|tauto].
    unfold ma_val, ma_new. destruct (qzero (dv_get d0 k)) eqn:Hz; cbn [andb].
    + apply qzero_true in Hz. destruct (qle_bool (qabs (x * sv_get v k)) eps) eqn:Hq; cbn [negb].
      * split; [intros H; left; exact H | intros [H|[_ H]] _; [destruct (H Hz) | discriminate H]].
      * split; [intros _; right; split; [exact Hm | reflexivity] | intros _ H0; destruct (not_tiny_nonzero eps _ He Hq H0)].
    + split; [intros _; left; apply qzero_false, Hz|]. intros _ H0. apply sv_filter_indices_iff; [exact Hnd|].
      split; [exact Hm|]. unfold ma_cancel. cbn [fst snd]. rewrite Hz. unfold tiny_val in H0.
      destruct (qle_bool (qabs (dv_get d0 k + x * sv_get v k)) eps) eqn:Hq; [reflexivity | destruct (not_tiny_nonzero eps _ He Hq H0)].
Qed.

(* the adjust pass on a vector whose non-zeros are all indexed: the index list becomes exactly the support *)
Lemma ss_adjust_exact eps d idx : 0 <= eps -> NoDup idx -> (forall k, ~ dv_get d k == 0 -> In k idx) ->
  exact_supp (fold_left (fun d' k => if qle_bool (qabs (dv_get d' k)) eps then dv_set d' k 0 else d') idx d)
             (filter (fun k => negb (qle_bool (qabs (dv_get d k)) eps)) idx).
Proof.
  intros He Hnd Hsup. split; [apply NoDup_filter, Hnd|]. intros k. rewrite filter_In, fold_tiny_get, negb_true_iff.
  destruct (memb_spec k idx) as [Hm|Hm]; cbn [andb]; [|specialize (Hsup k); tauto].
  destruct (qle_bool (qabs (dv_get d k)) eps) eqn:Hq.
  - split; [intros [_ C]; discriminate C | intros C; destruct C; reflexivity].
  - split; [intros _; exact (not_tiny_nonzero eps _ He Hq) | intros _; split; [exact Hm | reflexivity]].
Qed.

(* the result of multAdd on a set-up vector whose index list is exactly its support: again exactly the support *)
Lemma ss_multadd_sv_exact eps x v s : 0 <= eps -> ss_ok 0 s -> ss_setup s = true -> ss_idx_nonzero s ->
  sv_nodup v -> sv_in_dim (ss_dim s) v ->
  ss_ok 0 (ss_multadd_sv eps x v s) /\ ss_idx_nonzero (ss_multadd_sv eps x v s).
Proof.
  intros He Hok Hs Hnz Hnd Hdim. unfold ss_multadd_sv. rewrite Hs, ss_multadd_fold_eq by assumption.
  destruct (ss_multadd_loop_exact eps x _ _ v He (exact_supp_of_ok s Hok Hs Hnz) Hnd Hdim) as [HndI H].
  destruct (ma_marked eps x (ss_val s) v); apply exact_supp_ok.
  - split; [exact HndI|]. intros k. split; [intros Hk H0; exact (proj2 (H k) Hk H0) | apply H].
  - apply ss_adjust_exact; [exact He | exact HndI | intros k; apply H].
Qed.

(* multAdd keeps the vector consistent when, before the call, every non-zero is indexed and every indexed
   value is non-zero (the state setup() produces); ss_ok eps alone is not enough, see the two refutations. *)
Lemma ss_multadd_sv_ok : forall eps x v s, 0 <= eps -> ss_ok 0 s -> ss_idx_nonzero s ->
  sv_nodup v -> sv_in_dim (ss_dim s) v -> ss_ok eps (ss_multadd_sv eps x v s).
Proof.
  intros eps x v s He Hok Hnz Hnd Hdim. destruct (ss_setup s) eqn:Hs.
  - apply (ss_ok_weaken 0 eps); [exact He|]. apply ss_multadd_sv_exact; assumption.
  - unfold ss_multadd_sv. rewrite Hs. apply ss_ok_unsetup.
Qed.

Lemma ma_val0 x old y : ma_val 0 x old y == old + x * y.
Proof.
  unfold ma_val. destruct (qzero old) eqn:Hz; [|apply tiny_val0].
  apply qzero_true in Hz. destruct (qle_bool (qabs (x * y)) 0) eqn:Hq; [|rewrite Hz; ring].
  apply qle_true, Qabs_le0 in Hq. rewrite Hq. ring.
Qed.

Lemma fold_tiny_get0 (l : list nat) d k :
  dv_get (fold_left (fun d' k => if qle_bool (qabs (dv_get d' k)) 0 then dv_set d' k 0 else d') l d) k == dv_get d k.
Proof.
  rewrite fold_tiny_get. destruct (memb k l && _) eqn:H; [|reflexivity].
  apply andb_true_iff in H. symmetry. apply Qabs_le0, qle_true, H.
Qed.

Lemma ss_multadd_sv_val0 : forall x v s i, sv_nodup v -> sv_in_dim (ss_dim s) v ->
  dv_get (ss_val (ss_multadd_sv 0 x v s)) i == dv_get (ss_val s) i + x * sv_get v i.
Proof.
  intros x v s i Hnd Hdim. unfold ss_multadd_sv. destruct (ss_setup s); [|apply dv_multadd_sv_get; assumption].
  rewrite ss_multadd_fold_eq by assumption. rewrite <- ma_val0.
  rewrite <- (dv_fold_op_get0 (ma_val 0 x) v (ss_val s) i) by (try assumption; intros y; rewrite ma_val0; ring).
  destruct (ma_marked 0 x (ss_val s) v); [reflexivity | apply fold_tiny_get0].
Qed.

Lemma ss_multadd_sv_dim eps x v s : sv_nodup v -> sv_in_dim (ss_dim s) v -> ss_dim (ss_multadd_sv eps x v s) = ss_dim s.
Proof.
  intros Hnd Hdim. unfold ss_multadd_sv, ss_dim. destruct (ss_setup s); [|apply dv_multadd_sv_length].
  rewrite ss_multadd_fold_eq by assumption.
  destruct (ma_marked eps x (ss_val s) v); cbn [ss_val]; rewrite ?fold_tiny_length; apply ma_vals_length.
Qed.

Lemma ss_multadd_sv_dim0 x v s : sv_nodup v -> sv_in_dim (ss_dim s) v -> ss_dim (ss_multadd_sv 0 x v s) = ss_dim s.
Proof. apply ss_multadd_sv_dim. Qed.

(* ss_ok eps alone is not kept by multAdd: a tiny non-indexed value (setValue(i, tiny) leaves one) grows
   large without being indexed *)
Example ss_multadd_sv_ok_eps_refuted :
  exists eps x v s, 0 <= eps /\ ss_ok eps s /\ sv_nodup v /\ sv_in_dim (ss_dim s) v /\
                    ~ ss_ok eps (ss_multadd_sv eps x v s).
Proof.
  exists 1, 1, [(0%nat, 1)], (mkSS [1 # 2] [] true).
  split; [discriminate|]. split; [|split; [|split]].
  - intros _. split; [constructor|]. split; [constructor|]. intros i Hi _. right.
    cbn in Hi. assert (i = 0%nat) by lia. subst. discriminate.
  - repeat constructor. intros [].
  - repeat constructor.
  - intros H. destruct (H eq_refl) as (_ & _ & Hc). destruct (Hc 0%nat) as [[]|C].
    + cbn. lia.
    + vm_compute. discriminate.
    + vm_compute in C. apply C. reflexivity.
Qed.

(* an indexed exact zero (add(i, 0) leaves one) is indexed a second time *)
Example ss_multadd_sv_ok_zero_refuted :
  exists x v s, ss_ok 0 s /\ sv_nodup v /\ sv_in_dim (ss_dim s) v /\ ~ ss_ok 0 (ss_multadd_sv 0 x v s).
Proof.
  exists 1, [(0%nat, 1)], (mkSS [0] [0%nat] true).
  split; [|split; [|split]].
  - intros _. split; [repeat constructor; intros []|]. split; [repeat constructor|].
    intros i Hi _. left. cbn in Hi. assert (i = 0%nat) by lia. subst. left. reflexivity.
  - repeat constructor. intros [].
  - repeat constructor.
  - intros H. destruct (H eq_refl) as (Hnd & _ & _). vm_compute in Hnd.
    inversion Hnd as [|? ? Hn _]; subst. apply Hn. left. reflexivity.
Qed.

Lemma ss_new_ok eps n : ss_ok eps (ss_new n).
Proof.
  unfold ss_new. apply ss_ok_mk; [constructor | constructor |].
  intros i _ Hnz. exfalso. apply Hnz. rewrite dv_get_zero. reflexivity.
Qed.

Lemma sv_remove_range_spec : forall n m v, (n <= m)%nat -> (m < length v)%nat ->
  Permutation (sv_remove_range n m v ++ firstn (m + 1 - n) (skipn n v)) v /\
  length (sv_remove_range n m v) = (length v - (m + 1 - n))%nat.
Proof.
  intros n m v Hn Hm. destruct (app3_split v n (m + 1 - n)) as (Ev & HA & HB); [lia|].
  set (A := firstn n v) in *. set (B := firstn _ (skipn n v)) in *. set (C := skipn _ (skipn n v)) in *.
  clearbody A B C. subst v n.
  assert (HP : Permutation (sv_remove_range (length A) m (A ++ B ++ C) ++ B) (A ++ B ++ C)).
  { unfold sv_remove_range. cbv zeta. replace (m + 1 - length A)%nat with (length B) by lia.
    replace (length (A ++ B ++ C) - (m + 1))%nat with (length C) by (rewrite !app_length; lia).
    rewrite (remove_range_abc (@rev _) A B C (Nat.min (length B) (length C))) by (rewrite ?app_length; lia).
    apply remove_range_perm. intros x. symmetry. apply Permutation_rev. }
  split; [exact HP|]. apply Permutation_length in HP. rewrite !app_length in *. lia.
Qed.

Lemma ss_assign_ss_dim eps rhs this : ss_dim (ss_assign_ss eps rhs this) = ss_dim rhs.
Proof.
  unfold ss_assign_ss, ss_dim. destruct (ss_setup rhs); cbn [ss_val].
  - rewrite fold_right_set_length. apply dv_redim_length.
  - rewrite fold_left_set_length. apply dv_redim_length.
Qed.

Lemma ss_assign_ss_setup eps rhs this : ss_setup (ss_assign_ss eps rhs this) = true.
Proof. unfold ss_assign_ss. destruct (ss_setup rhs); reflexivity. Qed.

Lemma ss_assign_ss_get eps rhs this k : (k < ss_dim rhs)%nat ->
  dv_get (ss_val (ss_assign_ss eps rhs this)) k =
  if memb k (ss_idx (ss_assign_ss eps rhs this)) then dv_get (ss_val rhs) k
  else dv_get (dv_redim (ss_dim rhs) (ss_val (ss_clear this))) k.
Proof.
  intros Hk. unfold ss_assign_ss. destruct (ss_setup rhs); cbn [ss_val ss_idx];
    [apply fold_right_set_get | apply fold_left_set_get]; rewrite dv_redim_length; exact Hk.
Qed.

(* the dense meaning for eps = 0; "ss_ok 0 this" is what makes clear() really zero the left operand *)
Lemma ss_assign_ss_val0 : forall rhs this, ss_ok 0 rhs -> ss_ok 0 this ->
  dv_eq (ss_val (ss_assign_ss 0 rhs this)) (ss_val rhs).
Proof.
  intros rhs this Hr Ht. apply dv_eq_of_get; fold (ss_dim (ss_assign_ss 0 rhs this)); rewrite ss_assign_ss_dim; [reflexivity|].
  intros k Hk. rewrite ss_assign_ss_get by exact Hk.
  destruct (memb_spec k (ss_idx (ss_assign_ss 0 rhs this))) as [Hm|Hm]; [reflexivity|].
  rewrite dv_redim_get, (proj2 (Nat.ltb_lt _ _) Hk), ss_clear_val by exact Ht. symmetry.
  unfold ss_assign_ss in Hm. destruct (ss_setup rhs) eqn:Hs; cbn [ss_idx] in Hm; [apply ss_ok0_notin; assumption|].
  destruct (qle_bool (qabs (dv_get (ss_val rhs) k)) 0) eqn:Hq; [apply Qabs_le0, qle_true, Hq|].
  exfalso. apply Hm. apply filter_In. split; [apply in_seq; lia | rewrite Hq; reflexivity].
Qed.

Lemma ss_assign_ss_ok : forall eps rhs this, ss_ok eps rhs -> ss_ok eps this -> ss_ok eps (ss_assign_ss eps rhs this).
Proof.
  intros eps rhs this Hr Ht _. rewrite ss_assign_ss_dim. split; [|split].
  - unfold ss_assign_ss. destruct (ss_setup rhs) eqn:Hs; cbn [ss_idx]; [apply (Hr Hs) | apply NoDup_filter, seq_NoDup].
  - unfold ss_assign_ss. destruct (ss_setup rhs) eqn:Hs; cbn [ss_idx]; [apply (Hr Hs)|].
    apply Forall_forall. intros k Hk. apply filter_In in Hk. destruct Hk as [Hk _]. apply in_seq in Hk. lia.
  - intros k Hk Hnz. rewrite ss_assign_ss_get in * by exact Hk.
    destruct (memb_spec k (ss_idx (ss_assign_ss eps rhs this))) as [Hm|Hm]; [left; exact Hm | right].
    rewrite dv_redim_get in *. destruct (Nat.ltb k (ss_dim rhs)); [apply ss_clear_cov; assumption|].
    exfalso. apply Hnz. reflexivity.
Qed.
