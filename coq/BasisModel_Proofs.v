(* Lemmas about the basis descriptor model (C04, C14). *)
From Coq Require Import QArith Bool List ZArith Lia.
From SV Require Import ListAux BasisModel.
Import ListNotations.
Local Open Scope nat_scope.

Lemma combine_length_eq : forall (A B : Type) (l : list A) (l' : list B),
  List.length l = List.length l' -> List.length (combine l l') = List.length l.
Proof. intros A B l l' H. rewrite combine_length, H. apply Nat.min_id. Qed.

Lemma forallb_combine_map : forall (A B : Type) (P : A -> B -> bool) (f : A -> B) (vs : list A),
  (forall v, P v (f v) = true) ->
  forallb (fun p => P (fst p) (snd p)) (combine vs (map f vs)) = true.
Proof. intros A B P f vs H. rewrite combine_map_r. apply forallb_map_true, H. Qed.

Lemma forallb_combine_map2 : forall (A B C : Type) (P : A -> B -> bool) (g : A -> C -> B) (vs : list A) (ds : list C),
  (forall v s, P v (g v s) = true) ->
  forallb (fun p => P (fst p) (snd p)) (combine vs (map (fun p => g (fst p) (snd p)) (combine vs ds))) = true.
Proof. intros A B C P g vs ds H. rewrite combine_map_combine. apply forallb_map_true. intros p. apply H. Qed.

Lemma forallb_combine_Forall2 : forall (A B : Type) (P : A -> B -> bool) (R : A -> B -> Prop) (vs : list A) (ss : list B),
  List.length vs = List.length ss ->
  (forall v s, P v s = true -> R v s) ->
  forallb (fun p => P (fst p) (snd p)) (combine vs ss) = true -> Forall2 R vs ss.
Proof.
  intros A B P R vs. induction vs as [|v vs IH]; intros ss HL HR H; destruct ss as [|s ss]; cbn in *; try discriminate.
  - constructor.
  - apply andb_true_iff in H. destruct H as [H1 H2]. constructor; [apply HR, H1|].
    apply IH; [lia | assumption | assumption].
Qed.

(* The status functions of the model read a variable only through [lo_fin], [up_fin] and [bounds_eq] (and tests on its
   objective); the three take five combinations.  [destruct (boundsP v)] on a goal in which the functions are unfolded
   leaves one goal per combination, with the three tests decided. *)
Inductive bounds_view : bool -> bool -> bool -> Prop :=
| Vfree : bounds_view false false false
| Vlower : bounds_view true false false
| Vupper : bounds_view false true false
| Vboxed : bounds_view true true false
| Vfixed : bounds_view true true true.

Lemma boundsP : forall v, bounds_view (lo_fin v) (up_fin v) (bounds_eq v).
Proof.
  intros [[l|] [u|] o]; unfold lo_fin, up_fin, bounds_eq; cbn; try constructor. destruct (Qeq_bool l u); constructor.
Qed.

(* a statement about one entry in which the functions are unfolded is a finite table: by the bounds of v, the status s
   and (for a properly boxed v) the sign of the objective *)
Ltac entry_table v s :=
  destruct (boundsP v), s; cbn; try reflexivity; try discriminate;
  destruct (Qle_bool (v_mobj v) 0); reflexivity || discriminate.

Lemma is_dual_dualStatus : forall v, is_dual (dualStatus v) = true.
Proof. intros v. unfold dualStatus. destruct (boundsP v); reflexivity. Qed.

Lemma is_dual_primalStatus : forall v, is_dual (primalStatus v) = false.
Proof.
  intros v. unfold primalStatus. destruct (boundsP v); try reflexivity.
  destruct (Qeq_bool (v_mobj v) 0), (neg_lo_lt_up v), (Qlt_b (v_mobj v) 0); reflexivity.
Qed.

Lemma repair_dual : forall v s, is_dual (repair v s) = is_dual s.
Proof. intros v s. unfold repair, dualStatus. entry_table v s. Qed.

Lemma repair_valid : forall v s, entry_valid v (repair v s) = true.
Proof. intros v s. unfold entry_valid, repair, dualStatus. entry_table v s. Qed.

Lemma repair_idem : forall v s, repair v (repair v s) = repair v s.
Proof. intros v s. unfold repair, dualStatus. entry_table v s. Qed.

Lemma dual_entry_valid : forall v, entry_valid v (dualStatus v) = true.
Proof.
  intros v. unfold entry_valid. rewrite is_dual_dualStatus. unfold ds_eqb. apply Z.eqb_refl.
Qed.

Lemma repair_of_dual : forall v s, is_dual s = true -> repair v s = dualStatus v.
Proof. intros v s H. unfold repair. rewrite H. reflexivity. Qed.

Lemma repair_dualStatus : forall v, repair v (dualStatus v) = dualStatus v.
Proof. intros v. apply repair_of_dual, is_dual_dualStatus. Qed.

Lemma repair_primalStatus : forall v, repair v (primalStatus v) = primalStatus v.
Proof.
  intros v. unfold repair, primalStatus. destruct (boundsP v); try reflexivity.
  destruct (Qeq_bool (v_mobj v) 0), (neg_lo_lt_up v), (Qlt_b (v_mobj v) 0); reflexivity.
Qed.

Lemma primal_entry_valid : forall v, entry_valid v (primalStatus v) = true.
Proof. intros v. rewrite <- repair_primalStatus. apply repair_valid. Qed.

Lemma ds_eqb_eq : forall a b, ds_eqb a b = true -> a = b.
Proof. intros a b H. destruct a, b; cbn in H; try discriminate; reflexivity. Qed.

Lemma vs_eqb_eq : forall a b, vs_eqb a b = true -> a = b.
Proof. intros a b H. destruct a, b; cbn in H; try discriminate; reflexivity. Qed.

Lemma count_dual_primal : forall l, count_dual l + count_primal l = List.length l.
Proof.
  unfold count_dual, count_primal. induction l as [|s l IH]; cbn; [reflexivity|].
  destruct (is_dual s); cbn; lia.
Qed.

Lemma count_primal_app : forall a b, count_primal (a ++ b) = count_primal a + count_primal b.
Proof. intros a b. unfold count_primal. rewrite filter_app, app_length. reflexivity. Qed.

Lemma count_balance : forall (r c : list DStatus) nR nC, List.length r = nR -> List.length c = nC ->
  (count_dual r + count_dual c = nR <-> count_primal r + count_primal c = nC).
Proof. intros r c nR nC <- <-. pose proof (count_dual_primal r). pose proof (count_dual_primal c). lia. Qed.

Lemma isDescValid_iff : forall lp d, isDescValid lp d = true <->
  List.length (d_rows d) = nRows lp /\ List.length (d_cols d) = nCols lp /\
  entries_valid (b_rows lp) (d_rows d) = true /\ entries_valid (b_cols lp) (d_cols d) = true /\
  count_primal (d_rows d) + count_primal (d_cols d) = nCols lp.
Proof. intros lp d. unfold isDescValid. rewrite !andb_true_iff, !Nat.eqb_eq. tauto. Qed.

Lemma isBasisValid_iff : forall lp rows cols, isBasisValid lp rows cols = true <->
  List.length rows = nRows lp /\ List.length cols = nCols lp /\
  vs_entries_valid (b_rows lp) rows = true /\ vs_entries_valid (b_cols lp) cols = true /\
  count_basic rows + count_basic cols = nRows lp.
Proof. intros lp rows cols. unfold isBasisValid, isBasisValid_rep. rewrite !andb_true_iff, !Nat.eqb_eq. tauto. Qed.

Lemma count_dual_repair_list : forall vs ds, List.length vs = List.length ds ->
  count_dual (repair_list vs ds) = count_dual ds.
Proof.
  unfold count_dual, repair_list. induction vs as [|v vs IH]; intros ds H; destruct ds as [|s ds]; cbn in *; try discriminate;
    [reflexivity|].
  rewrite repair_dual. destruct (is_dual s); cbn; rewrite IH by lia; reflexivity.
Qed.

Lemma repair_list_length : forall vs ds, List.length vs = List.length ds ->
  List.length (repair_list vs ds) = List.length vs.
Proof. intros vs ds H. unfold repair_list. rewrite map_length. apply combine_length_eq, H. Qed.

Lemma count_dual_map_dual : forall vs, count_dual (map dualStatus vs) = List.length vs.
Proof.
  unfold count_dual. induction vs as [|v vs IH]; cbn; [reflexivity|]. rewrite is_dual_dualStatus. cbn. rewrite IH. reflexivity.
Qed.

Lemma count_dual_map_primal : forall vs, count_dual (map primalStatus vs) = 0.
Proof.
  unfold count_dual. induction vs as [|v vs IH]; cbn; [reflexivity|]. rewrite is_dual_primalStatus. exact IH.
Qed.

Lemma count_primal_map_dual : forall vs, count_primal (map dualStatus vs) = 0.
Proof.
  intros vs. pose proof (count_dual_primal (map dualStatus vs)) as H. rewrite count_dual_map_dual, map_length in H. lia.
Qed.

Lemma count_primal_map_primal : forall vs, count_primal (map primalStatus vs) = List.length vs.
Proof.
  intros vs. pose proof (count_dual_primal (map primalStatus vs)) as H. rewrite count_dual_map_primal, map_length in H. lia.
Qed.

(* the two representations take the same consistency decision on descriptors of the right dimensions *)
Lemma rowrep_consistency : forall lp d,
  List.length (d_rows d) = nRows lp -> List.length (d_cols d) = nCols lp ->
  loadDesc_rowrep lp d = loadDesc lp d.
Proof.
  intros lp d Hr Hc. unfold loadDesc_rowrep, loadDesc.
  set (r := repair_list (b_rows lp) (d_rows d)). set (c := repair_list (b_cols lp) (d_cols d)).
  replace (Nat.eqb (count_primal r + count_primal c) (nCols lp)) with (Nat.eqb (count_dual r + count_dual c) (nRows lp));
    [reflexivity|].
  apply eq_true_iff_eq. rewrite !Nat.eqb_eq. apply count_balance; apply repair_list_length; symmetry; assumption.
Qed.

Lemma entries_valid_repair_list : forall vs ds, entries_valid vs (repair_list vs ds) = true.
Proof.
  intros vs ds. unfold entries_valid, repair_list.
  apply (forallb_combine_map2 _ _ _ entry_valid repair). apply repair_valid.
Qed.

Lemma entries_valid_map_dual : forall vs, entries_valid vs (map dualStatus vs) = true.
Proof. intros vs. apply (forallb_combine_map _ _ entry_valid dualStatus), dual_entry_valid. Qed.

Lemma entries_valid_map_primal : forall vs, entries_valid vs (map primalStatus vs) = true.
Proof. intros vs. apply (forallb_combine_map _ _ entry_valid primalStatus), primal_entry_valid. Qed.

Lemma initialDesc_valid : forall lp, isDescValid lp (initialDesc lp) = true.
Proof.
  intros lp. apply isDescValid_iff. unfold initialDesc, nRows, nCols; cbn [d_rows d_cols].
  rewrite !map_length, count_primal_map_dual, count_primal_map_primal.
  repeat split; [apply entries_valid_map_dual | apply entries_valid_map_primal].
Qed.

Lemma loadDesc_valid : forall lp d,
  List.length (d_rows d) = nRows lp -> List.length (d_cols d) = nCols lp ->
  isDescValid lp (loadDesc lp d) = true.
Proof.
  intros lp d Hr Hc. unfold loadDesc.
  set (r := repair_list (b_rows lp) (d_rows d)). set (c := repair_list (b_cols lp) (d_cols d)).
  destruct (Nat.eqb (count_dual r + count_dual c) (nRows lp)) eqn:E; [|apply initialDesc_valid].
  apply Nat.eqb_eq in E.
  assert (Lr : List.length r = nRows lp) by (apply repair_list_length; symmetry; exact Hr).
  assert (Lc : List.length c = nCols lp) by (apply repair_list_length; symmetry; exact Hc).
  apply isDescValid_iff; cbn [d_rows d_cols].
  repeat split; try assumption; try apply entries_valid_repair_list. apply (count_balance r c _ _ Lr Lc), E.
Qed.

Lemma repair_list_idem : forall vs ds, repair_list vs (repair_list vs ds) = repair_list vs ds.
Proof.
  intros vs ds. unfold repair_list. rewrite combine_map_combine, map_map. apply map_ext. intros p. apply repair_idem.
Qed.

Lemma repair_list_map : forall (f : var -> DStatus) vs, (forall v, repair v (f v) = f v) ->
  repair_list vs (map f vs) = map f vs.
Proof. intros f vs H. unfold repair_list. rewrite combine_map_r, map_map. apply map_ext, H. Qed.

Lemma loadDesc_idem : forall lp d, loadDesc lp (loadDesc lp d) = loadDesc lp d.
Proof.
  intros lp d. unfold loadDesc at 2 3.
  set (r := repair_list (b_rows lp) (d_rows d)). set (c := repair_list (b_cols lp) (d_cols d)).
  destruct (Nat.eqb (count_dual r + count_dual c) (nRows lp)) eqn:E.
  - unfold loadDesc; cbn. unfold r, c. rewrite !repair_list_idem. fold r c. rewrite E. reflexivity.
  - unfold loadDesc, initialDesc; cbn.
    rewrite (repair_list_map dualStatus) by apply repair_dualStatus.
    rewrite (repair_list_map primalStatus) by apply repair_primalStatus.
    rewrite count_dual_map_dual, count_dual_map_primal. unfold nRows. rewrite Nat.add_0_r, Nat.eqb_refl. reflexivity.
Qed.

(* a valid descriptor has exactly nRows dual (basic) entries *)
Lemma isDescValid_count : forall lp d, isDescValid lp d = true ->
  List.length (d_rows d) = nRows lp /\ List.length (d_cols d) = nCols lp /\
  count_dual (d_rows d) + count_dual (d_cols d) = nRows lp /\
  count_primal (d_rows d) = count_dual (d_cols d).
Proof.
  intros lp d H. apply isDescValid_iff in H as (H1 & H2 & _ & _ & H5).
  pose proof (count_dual_primal (d_rows d)). pose proof (count_dual_primal (d_cols d)).
  repeat split; lia.
Qed.

(* what an accepted entry looks like *)
Definition basis_entry_ok (v : var) (s : VarStatus) : Prop :=
  s <> UNDEFINED /\
  (s = ON_UPPER -> v_up v <> None) /\
  (s = ON_LOWER -> v_lo v <> None) /\
  (s = FIXED -> exists l u, v_lo v = Some l /\ v_up v = Some u /\ Qeq l u).

Lemma vs_entry_valid_ok : forall v s, vs_entry_valid v s = true -> basis_entry_ok v s.
Proof.
  intros v s H. destruct v as [[l|] [u|] o]; destruct s; cbn in H; try discriminate;
    (split; [discriminate|]); (split; [intros; try discriminate; cbn; discriminate|]);
    (split; [intros; try discriminate; cbn; discriminate|]); intros E; try discriminate.
  exists l, u. cbn. repeat split. apply Qeq_bool_iff. exact H.
Qed.

Lemma valid_basis_count : forall lp rows cols, isBasisValid lp rows cols = true ->
  List.length rows = nRows lp /\ List.length cols = nCols lp /\
  count_basic rows + count_basic cols = nRows lp /\
  Forall2 basis_entry_ok (b_rows lp) rows /\ Forall2 basis_entry_ok (b_cols lp) cols.
Proof.
  intros lp rows cols H. apply isBasisValid_iff in H as (H1 & H2 & H3 & H4 & H5).
  split; [exact H1|]. split; [exact H2|]. split; [exact H5|]. split.
  - apply (forallb_combine_Forall2 _ _ vs_entry_valid); [unfold nRows in H1; lia | apply vs_entry_valid_ok | exact H3].
  - apply (forallb_combine_Forall2 _ _ vs_entry_valid); [unfold nCols in H2; lia | apply vs_entry_valid_ok | exact H4].
Qed.

(* varStatusToBasisStatus as a total function (UNDEFINED, which throws, goes to D_UNDEFINED) *)
Definition conv (v : var) (s : VarStatus) : DStatus :=
  match varStatusToBasisStatus v s with Some d => d | None => D_UNDEFINED end.

Lemma to_desc_list_ok : forall vs ss, List.length vs = List.length ss -> vs_entries_valid vs ss = true ->
  to_desc_list vs ss = Some (map (fun p => conv (fst p) (snd p)) (combine vs ss)).
Proof.
  unfold vs_entries_valid. induction vs as [|v vs IH]; intros ss HL H; destruct ss as [|s ss]; cbn in *; try discriminate;
    [reflexivity|].
  apply andb_true_iff in H. destruct H as [H1 H2]. rewrite (IH ss) by (try lia; assumption).
  unfold conv. destruct s; cbn in *; try discriminate; reflexivity.
Qed.

Lemma is_dual_conv : forall v s, vs_entry_valid v s = true -> is_dual (conv v s) = vs_eqb s BASIC.
Proof.
  intros v s H. destruct s; cbn in H; try discriminate; try reflexivity.
  unfold conv; cbn. apply is_dual_dualStatus.
Qed.

Lemma count_dual_conv : forall vs ss, vs_entries_valid vs ss = true ->
  count_dual (map (fun p => conv (fst p) (snd p)) (combine vs ss)) = count_basic (map snd (combine vs ss)).
Proof.
  unfold vs_entries_valid, count_dual, count_basic.
  induction vs as [|v vs IH]; intros ss H; [reflexivity|].
  destruct ss as [|s ss]; [reflexivity|].
  cbn [combine map filter fst snd forallb] in *.
  apply andb_true_iff in H. destruct H as [H1 H2]. specialize (IH ss H2).
  rewrite (is_dual_conv _ _ H1). destruct (vs_eqb s BASIC); cbn [List.length]; rewrite IH; reflexivity.
Qed.

(* the entry-wise round trip: convert, repair, convert back *)
Lemma roundtrip_entry : forall v s, vs_entry_valid v s && zero_free1 v s = true ->
  basisStatusToVarStatus (repair v (conv v s)) = mark_fixed1 v s.
Proof.
  intros v s. unfold zero_free1, mark_fixed1, conv, repair. destruct s; cbn; unfold dualStatus;
    destruct (boundsP v); cbn; try reflexivity; try discriminate; destruct (Qle_bool (v_mobj v) 0); reflexivity.
Qed.

Lemma repair_list_conv_map : forall vs ss,
  repair_list vs (map (fun p => conv (fst p) (snd p)) (combine vs ss)) =
  map (fun p => repair (fst p) (conv (fst p) (snd p))) (combine vs ss).
Proof. intros vs ss. unfold repair_list. rewrite combine_map_combine, map_map. reflexivity. Qed.

(* one status list through setBasis and getBasis *)
Lemma roundtrip_list : forall vs ss, List.length vs = List.length ss -> vs_entries_valid vs ss = true ->
  forallb (fun p => zero_free1 (fst p) (snd p)) (combine vs ss) = true ->
  let cl := map (fun p => conv (fst p) (snd p)) (combine vs ss) in
  to_desc_list vs ss = Some cl /\ count_dual (repair_list vs cl) = count_basic ss /\
  map basisStatusToVarStatus (repair_list vs cl) = mark_fixed_list vs ss.
Proof.
  intros vs ss HL HV HZ cl. split; [apply to_desc_list_ok; assumption|]. split.
  - rewrite count_dual_repair_list by (unfold cl; rewrite map_length, combine_length_eq; auto).
    unfold cl. rewrite count_dual_conv, map_snd_combine by assumption. reflexivity.
  - unfold cl, mark_fixed_list. rewrite repair_list_conv_map, map_map.
    apply (map_ext_forallb _ _ _ _ (forallb_and _ _ _ HV HZ)). intros [v s]. apply roundtrip_entry.
Qed.

Lemma set_get_roundtrip : forall lp rows cols,
  isBasisValid lp rows cols = true -> zero_only_free lp rows cols = true ->
  option_map getBasis (setBasis lp rows cols) = Some (mark_fixed lp rows cols).
Proof.
  intros lp rows cols HV HZ. apply isBasisValid_iff in HV as (HLr & HLc & H1 & H0 & H2).
  unfold zero_only_free in HZ. apply andb_true_iff in HZ as [HZr HZc].
  destruct (roundtrip_list (b_rows lp) rows (eq_sym HLr) H1 HZr) as (Tr & Cr & Mr).
  destruct (roundtrip_list (b_cols lp) cols (eq_sym HLc) H0 HZc) as (Tc & Cc & Mc).
  unfold setBasis. rewrite Tr, Tc. unfold loadDesc; cbn [d_rows d_cols option_map].
  rewrite Cr, Cc, H2, Nat.eqb_refl. unfold getBasis, mark_fixed; cbn [d_rows d_cols]. rewrite Mr, Mc. reflexivity.
Qed.

Lemma entry_valid_vs : forall v s, entry_valid v s = true -> vs_entry_valid v (basisStatusToVarStatus s) = true.
Proof. intros v s. unfold entry_valid, vs_entry_valid, dualStatus. entry_table v s. Qed.

Lemma vs_entries_valid_getBasis : forall vs ds, entries_valid vs ds = true ->
  vs_entries_valid vs (map basisStatusToVarStatus ds) = true.
Proof.
  unfold entries_valid, vs_entries_valid. induction vs as [|v vs IH]; intros ds H; cbn; [reflexivity|].
  destruct ds as [|s ds]; cbn in *; [reflexivity|].
  apply andb_true_iff in H. destruct H as [H1 H2]. rewrite (entry_valid_vs _ _ H1), (IH ds H2). reflexivity.
Qed.

Lemma count_basic_getBasis : forall ds, count_basic (map basisStatusToVarStatus ds) = count_dual ds.
Proof.
  unfold count_basic, count_dual. induction ds as [|s ds IH]; cbn; [reflexivity|].
  destruct s; cbn; rewrite IH; reflexivity.
Qed.

Lemma descvalid_basisvalid : forall lp d, isDescValid lp d = true ->
  isBasisValid lp (fst (getBasis d)) (snd (getBasis d)) = true.
Proof.
  intros lp d H. pose proof (isDescValid_count lp d H) as (Lr & Lc & Cn & _).
  apply isDescValid_iff in H as (_ & _ & H3 & H4 & _).
  apply isBasisValid_iff. unfold getBasis; cbn [fst snd]. rewrite !map_length, !count_basic_getBasis.
  repeat split; try assumption; apply vs_entries_valid_getBasis; assumption.
Qed.

Lemma to_desc_list_length : forall vs ss l, List.length vs = List.length ss -> to_desc_list vs ss = Some l ->
  List.length l = List.length vs.
Proof.
  induction vs as [|v vs IH]; intros ss l HL H; destruct ss as [|s ss]; cbn in *; try discriminate.
  - inversion H. reflexivity.
  - destruct (varStatusToBasisStatus v s); [|discriminate].
    destruct (to_desc_list vs ss) eqn:E; [|discriminate]. inversion H. cbn. rewrite (IH ss l0) by (try lia; assumption).
    reflexivity.
Qed.

(* whatever arrays of the right lengths are passed to setBasis while the LP is in the solver: if the call returns,
   the basis that is reported afterwards is valid *)
Lemma setBasis_reports_valid : forall lp rows cols d,
  List.length rows = nRows lp -> List.length cols = nCols lp ->
  setBasis lp rows cols = Some d ->
  isBasisValid lp (fst (getBasis d)) (snd (getBasis d)) = true.
Proof.
  intros lp rows cols d Hr Hc H. unfold setBasis in H.
  destruct (to_desc_list (b_rows lp) rows) as [r|] eqn:Er; [|discriminate].
  destruct (to_desc_list (b_cols lp) cols) as [c|] eqn:Ec; [|discriminate].
  inversion H. apply descvalid_basisvalid. apply loadDesc_valid; cbn.
  - apply (to_desc_list_length _ rows); [unfold nRows in Hr; lia | exact Er].
  - apply (to_desc_list_length _ cols); [unfold nCols in Hc; lia | exact Ec].
Qed.

(* the stored basis, if there is one, has the dimensions of the LP *)
Definition store_wf (lp : blp) (st : store) : Prop :=
  match st with
  | NoBasis => True
  | Outside r c => List.length r = nRows lp /\ List.length c = nCols lp
  | Inside d => List.length (d_rows d) = nRows lp /\ List.length (d_cols d) = nCols lp
  end.

Lemma basic_positions_all : forall (A : Type) (l : list A) k,
  basic_positions k (map (fun _ => BASIC) l) = seq k (List.length l).
Proof. intros A l. induction l as [|a l IH]; intros k; cbn; [reflexivity|]. rewrite IH. reflexivity. Qed.

Lemma basic_positions_slack : forall vs k, basic_positions k (map slack_col vs) = [].
Proof.
  induction vs as [|v vs IH]; intros k; cbn; [reflexivity|].
  unfold slack_col at 1. destruct (lo_fin v); cbn; [apply IH|]. destruct (up_fin v); cbn; apply IH.
Qed.

Lemma basic_positions_length : forall l k, List.length (basic_positions k l) = count_basic l.
Proof.
  unfold count_basic. induction l as [|s l IH]; intros k; cbn; [reflexivity|].
  destruct (vs_eqb s BASIC); cbn; rewrite IH; reflexivity.
Qed.

(* the queries of SoPlexBase agree in all three storage branches *)
Lemma queries_agree : forall lp st, store_wf lp st ->
  (forall i, i < nRows lp -> sp_rowStatus lp st i = nth i (fst (sp_getBasis lp st)) UNDEFINED) /\
  (forall j, j < nCols lp -> sp_colStatus lp st j = nth j (snd (sp_getBasis lp st)) UNDEFINED) /\
  sp_getBasisInd lp st = ind_of (fst (sp_getBasis lp st)) (snd (sp_getBasis lp st)).
Proof.
  intros lp st WF. split; [|split].
  - intros i Hi. unfold sp_rowStatus. rewrite (proj2 (Nat.ltb_lt _ _) Hi).
    destruct st as [|r c|d]; cbn [sp_getBasis getBasis fst]; [|reflexivity|].
    + rewrite (nth_map_lt (fun _ : var => BASIC) _ i UNDEFINED (mkVar None None 0%Q)) by exact Hi. reflexivity.
    + rewrite (nth_map_lt basisStatusToVarStatus _ i UNDEFINED D_UNDEFINED) by (destruct WF; lia). reflexivity.
  - intros j Hj. unfold sp_colStatus. rewrite (proj2 (Nat.ltb_lt _ _) Hj).
    destruct st as [|r c|d]; cbn [sp_getBasis getBasis snd]; [|reflexivity|].
    + rewrite (nth_map_lt slack_col _ j UNDEFINED (mkVar None None 0%Q)) by exact Hj. reflexivity.
    + rewrite (nth_map_lt basisStatusToVarStatus _ j UNDEFINED D_UNDEFINED) by (destruct WF; lia). reflexivity.
  - destruct st; [|reflexivity|reflexivity]. cbn [sp_getBasisInd sp_getBasis fst snd]. unfold ind_of.
    rewrite basic_positions_all, basic_positions_slack. cbn [map]. rewrite app_nil_r. reflexivity.
Qed.

Lemma ind_of_length : forall rows cols, List.length (ind_of rows cols) = count_basic rows + count_basic cols.
Proof. intros. unfold ind_of. rewrite app_length, !map_length, !basic_positions_length. reflexivity. Qed.
