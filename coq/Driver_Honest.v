(* C16 / C01 - the status the solve driver ends with is the status of the LAST inner solve (or the verdict of the simplifier
   in the last pass): statuses of earlier passes, e.g. a limit that stopped a pass that was then repeated, are never
   reported, and a limit status of the last pass is never turned into OPTIMAL.  Partial correctness (for every fuel);
   termination is Driver_Proofs.driver_terminates. *)
From Coq Require Import ZArith List Bool Lia.
From SV Require Import DriverModel Driver_Lemmas.
Import ListNotations.
Local Open Scope Z_scope.

(* what one pass can show: the simplifier's verdict, or the status of the inner solve (after ABORT_CYCLING on the loaded,
   unscaled LP: the status the feasibility test of the cycling point gives) *)
Definition shows (o : orec) (sres : simp) (t : DriverModel.st) : Prop :=
  match sres with
  | S_INFEASIBLE => t = INFEASIBLE
  | S_UNBOUNDED => t = UNBOUNDED
  | S_DUAL_INFEASIBLE => t = INForUNBD
  | S_VANISHED => t = OPTIMAL
  | S_OKAY => o_status o = t \/ (o_status o = ABORT_CYCLING /\ o_cycstatus o = t)
  end.

(* s' has the status and the frame of s: verification and storing either end in Q or keep both *)
Definition keeps (s s' : dstate) : Prop := status s' = status s /\ frame s' = frame s.

Arguments zb : simpl never.

Section Hon.
Variable P : dparams.
Variable orc : nat -> orec.
Variable rec : bool -> dstate -> res.
Variable Q : dstate -> Prop.
Hypothesis Hrec : forall a s s', rec a s = Done s' -> Q s'.

(* keeping status and frame composes *)
Lemma or_keeps s s1 s' : keeps s s1 -> Q s' \/ keeps s1 s' -> Q s' \/ keeps s s'.
Proof. intros [H1 H2] [H | [H3 H4]]; [left; exact H | right; split; congruence]. Qed.

(* a state that keeps status and frame of [s] shows what [s] shows *)
Lemma keeps_shows o sres s s' :
  Q s' \/ keeps s s' -> shows o sres (status s) -> Q s' \/ (frame s' = frame s /\ shows o sres (status s')).
Proof. intros [H | [H1 H2]] Hs; [left; exact H | right; rewrite H1; split; assumption]. Qed.

Lemma verify_sol_keeps o s s' : verify_sol rec o s = Done s' -> Q s' \/ keeps s s'.
Proof.
  sdestr s. drv_eval verify_sol. destruct (o_vbits o) as [[[b1 b2] b3] b4]. cbn [any_viol].
  destruct (b1 || b2 || b3 || b4); intros H.
  - left. exact (Hrec _ _ _ H).
  - injection H as <-. right. split; reflexivity.
Qed.

Lemma verify_obj_keeps o s s' : verify_obj rec o s = Done s' -> Q s' \/ keeps s s'.
Proof.
  sdestr s. drv_eval verify_obj. destruct (o_vbits o) as [[[b1 b2] b3] b4].
  destruct (negb (o_dualfeas o) || b3 || b4); intros H.
  - left. exact (Hrec _ _ _ H).
  - injection H as <-. right. split; reflexivity.
Qed.

Arguments verify_sol : simpl never.
Arguments verify_obj : simpl never.

Lemma store_keeps o verify s s' : store rec o verify s = Done s' -> Q s' \/ keeps s s'.
Proof.
  sdestr s. drv_eval store.
  destruct (so && o_throw o).
  - intros H. left. exact (Hrec _ _ _ H).
  - destruct verify.
    + destruct stt; intros H; (apply verify_sol_keeps in H || apply verify_obj_keeps in H);
        exact (or_keeps _ _ _ (conj eq_refl eq_refl) H).
    + intros H. injection H as <-. right. split; reflexivity.
Qed.

Lemma store_from_presol_keeps o s s' : store_from_presol rec o s = Done s' -> Q s' \/ keeps s s'.
Proof.
  sdestr s. drv_eval store_from_presol. destruct (o_throw o); intros H.
  - left. exact (Hrec _ _ _ H).
  - apply verify_sol_keeps in H. exact (or_keeps _ _ _ (conj eq_refl eq_refl) H).
Qed.

Lemma store_shows o sres verify s s' :
  shows o sres (status s) -> store rec o verify s = Done s' -> Q s' \/ (frame s' = frame s /\ shows o sres (status s')).
Proof. intros Hs H. exact (keeps_shows o sres s s' (store_keeps o verify s s' H) Hs). Qed.

Lemma resolve_hon o s s' : resolve rec o s = Done s' -> Q s'.
Proof. unfold resolve. apply Hrec. Qed.

Arguments store : simpl never.
Arguments store_from_presol : simpl never.
Arguments resolve : simpl never.

Lemma evaluate_hon o sres en s s' :
  evaluate P rec o sres en s = Done s' -> Q s' \/ (frame s' = frame s /\ shows o sres (status s')).
Proof.
  (* the goals are grouped as in Driver_Proofs.evaluate_spec, in the order of the constructors of [simp] and [st] *)
  sdestr s. drv_eval evaluate. destruct sres.
  2-4: destruct (p_ensureray P); intros H;
         [left; exact (Hrec _ _ _ H) | injection H as <-; right; split; reflexivity].
  2: intros H; apply store_from_presol_keeps in H; exact (keeps_shows o S_VANISHED _ _ H eq_refl).
  destruct (o_status o) eqn:Hos.
  (* OPT_UNSCALED_VIOL, OTHER *)
  5, 13: intros H; injection H as <-; right; split; [reflexivity | left; exact Hos].
  (* ABORT_TIME, ABORT_ITER, REGULAR, RUNNING *)
  8-11: apply store_shows; left; exact Hos.
  (* UNBOUNDED, INFEASIBLE, INForUNBD *)
  2-4: destruct (negb ld && p_ensureray P); [intros H; left; exact (resolve_hon _ _ _ H) | apply store_shows; left; exact Hos].
  - (* OPTIMAL: store, then maybe the polishing pass *)
    unfold bind.
    destruct (store rec o (negb ld || scd) _) as [s1 | | s1] eqn:Hst; try discriminate.
    apply (store_shows o S_OKAY) in Hst; [|left; exact Hos]. destruct s1 as [? ? ? ? ? ? ? ? ? ? ? ap' ? ? ? ? ? ? ?]. cbv beta iota.
    destruct ap'; intros H.
    + left. exact (Hrec _ _ _ H).
    + injection H as <-. exact Hst.
  - (* SINGULAR *)
    destruct ld; intros H.
    + injection H as <-. right. split; [reflexivity | left; exact Hos].
    + left. exact (Hrec _ _ _ H).
  - (* ABORT_VALUE *)
    destruct en; [ | discriminate]. apply store_shows. left. exact Hos.
  - (* ABORT_CYCLING *)
    destruct (negb ld || scd); apply store_shows; [left; exact Hos | right; split; [exact Hos | reflexivity]].
Qed.

Lemma frame_setup apply o s : frame (pas_setup P apply o s) = S (frame s).
Proof. destruct s; reflexivity. Qed.

Lemma pas_body_hon apply s s' :
  pas_body P orc rec apply s = Done s' ->
  Q s' \/ (frame s' = S (frame s) /\ shows (orc (frame s)) (pas_sres P apply (orc (frame s))) (status s')).
Proof.
  unfold pas_body. intros H. apply evaluate_hon in H. rewrite frame_setup in H. exact H.
Qed.
End Hon.

(* the final status is what the last pass shows *)
Definition Honest (P : dparams) (orc : nat -> orec) (s' : dstate) : Prop :=
  exists a f, frame s' = S f /\ shows (orc f) (pas_sres P a (orc f)) (status s').

Lemma pas_honest P orc fuel : forall apply s s', pas P orc fuel apply s = Done s' -> Honest P orc s'.
Proof.
  induction fuel as [|f IH]; intros apply s s' H; [discriminate|].
  cbn [pas] in H. apply (pas_body_hon P orc (pas P orc f) (Honest P orc)) in H.
  - destruct H as [H | [H1 H2]]; [exact H|]. exists apply, (frame s). split; assumption.
  - intros a s0 s1 H0. eapply IH. exact H0.
Qed.

Theorem driver_reports_last_pass P orc oscaled fuel s0 s' :
  optimize P orc oscaled fuel s0 = Done s' -> Honest P orc s'.
Proof. rewrite optimize_eq. apply pas_honest. Qed.

Definition is_limit (t : DriverModel.st) : bool := match t with ABORT_TIME | ABORT_ITER => true | _ => false end.

Definition simp_verdict (r : simp) : option DriverModel.st :=
  match r with
  | S_INFEASIBLE => Some INFEASIBLE | S_UNBOUNDED => Some UNBOUNDED | S_DUAL_INFEASIBLE => Some INForUNBD
  | S_VANISHED => Some OPTIMAL | S_OKAY => None
  end.

(* whatever the final status is, it is the engine's answer in the last pass or, with the simplifier on, its verdict there *)
Theorem final_status_source P orc oscaled fuel s0 s' :
  optimize P orc oscaled fuel s0 = Done s' ->
  exists f, frame s' = S f /\
    (o_status (orc f) = status s' \/ (o_status (orc f) = ABORT_CYCLING /\ o_cycstatus (orc f) = status s') \/
     (p_simp P = true /\ simp_verdict (o_simp (orc f)) = Some (status s'))).
Proof.
  intros H. destruct (driver_reports_last_pass _ _ _ _ _ _ H) as (a & f & Hf & Hs). exists f. split; [exact Hf|].
  unfold pas_sres in Hs. destruct (a && p_simp P) eqn:E; [|cbn in Hs; tauto].
  apply andb_true_iff in E as [_ Ep].
  destruct (o_simp (orc f)); cbn in Hs |- *; [tauto | ..]; right; right; (split; [exact Ep | now rewrite Hs]).
Qed.

Theorem limit_status_not_invented P orc oscaled fuel s0 s' :
  optimize P orc oscaled fuel s0 = Done s' -> is_limit (status s') = true ->
  exists f, frame s' = S f /\
    (o_status (orc f) = status s' \/ (o_status (orc f) = ABORT_CYCLING /\ o_cycstatus (orc f) = status s')).
Proof.
  intros H L. destruct (final_status_source _ _ _ _ _ _ H) as (f & Hf & [Hs | [Hs | [_ Hs]]]); eauto.
  exfalso. destruct (o_simp (orc f)); cbn in Hs; try discriminate; injection Hs as Hs; rewrite <- Hs in L; discriminate.
Qed.

Theorem optimal_not_claimed_after_limit P orc oscaled fuel s0 s' :
  optimize P orc oscaled fuel s0 = Done s' -> status s' = OPTIMAL ->
  exists f, frame s' = S f /\
    (o_status (orc f) = OPTIMAL \/ (o_status (orc f) = ABORT_CYCLING /\ o_cycstatus (orc f) = OPTIMAL) \/
     (p_simp P = true /\ o_simp (orc f) = S_VANISHED)).
Proof.
  intros H L. destruct (final_status_source _ _ _ _ _ _ H) as (f & Hf & Hs). rewrite L in Hs. exists f. split; [exact Hf|].
  destruct Hs as [Hs | [Hs | [Ep Hs]]]; auto. right. right. split; [exact Ep|].
  destruct (o_simp (orc f)); cbn in Hs; congruence.
Qed.

(* a verdict INFEASIBLE / UNBOUNDED at the end is the verdict of the last pass, too *)
Theorem verdict_from_last_pass P orc oscaled fuel s0 s' t :
  optimize P orc oscaled fuel s0 = Done s' -> status s' = t -> (t = INFEASIBLE \/ t = UNBOUNDED) ->
  exists f, frame s' = S f /\
    (o_status (orc f) = t \/ (o_status (orc f) = ABORT_CYCLING /\ o_cycstatus (orc f) = t) \/
     (p_simp P = true /\ (o_simp (orc f) = S_INFEASIBLE /\ t = INFEASIBLE \/ o_simp (orc f) = S_UNBOUNDED /\ t = UNBOUNDED))).
Proof.
  intros H L Ht. destruct (final_status_source _ _ _ _ _ _ H) as (f & Hf & Hs). rewrite L in Hs. exists f. split; [exact Hf|].
  destruct Hs as [Hs | [Hs | [Ep Hs]]]; auto. right. right. split; [exact Ep|].
  destruct (o_simp (orc f)); cbn in Hs; try discriminate; injection Hs as <-; destruct Ht; try discriminate; auto.
Qed.
