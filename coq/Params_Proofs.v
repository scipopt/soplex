(* Proofs about the parameter model.  For every table that satisfies [table_ok] (Section Inv): the invariant [Consistent] of
   all reachable states, what the setters accept and reject, what they leave alone, reset and setSettings.  After the
   section, independent of any table: the line format that saveSettingsFile writes is tokenised into its three tokens. *)
From Coq Require Import ZArith Bool List String Ascii Lia.
From SV Require Import ListAux Dbl SettingsLexer SettingsLexer_Proofs ParamsModel.
Import ListNotations.
Local Open Scope Z_scope.

Lemma upd_length {A} n (x : A) l : List.length (upd n x l) = List.length l.
Proof. revert n; induction l as [|a l IH]; intros [|n]; simpl; auto. Qed.

Lemma nth_upd_same {A} n (x d : A) l : (n < List.length l)%nat -> nth n (upd n x l) d = x.
Proof. revert n; induction l as [|a l IH]; intros [|n] H; simpl in *; try lia; auto. apply IH; lia. Qed.

Lemma nth_upd_other {A} n k (x d : A) l : n <> k -> nth k (upd n x l) d = nth k l d.
Proof. revert n k; induction l as [|a l IH]; intros [|n] [|k] H; simpl; auto; try congruence. Qed.

Lemma nth_error_upd_same {A} n (x : A) l : (n < List.length l)%nat -> nth_error (upd n x l) n = Some x.
Proof. revert n; induction l as [|a l IH]; intros [|n] H; simpl in *; try lia; auto. apply IH; lia. Qed.

Lemma nth_error_upd_other {A} n k (x : A) l : n <> k -> nth_error (upd n x l) k = nth_error l k.
Proof. revert n k; induction l as [|a l IH]; intros [|n] [|k] H; simpl; auto; try congruence. Qed.

Lemma Forall2_upd {A B} (P : A -> B -> Prop) t l n r x :
  Forall2 P t l -> nth_error t n = Some r -> P r x -> Forall2 P t (upd n x l).
Proof.
  intros H; revert n; induction H as [|a b t l Hab H IH]; intros [|n] Hn Hp; simpl in *; try discriminate.
  - injection Hn as ->. constructor; auto.
  - constructor; auto.
Qed.

Lemma Forall2_map_r {A B} (P : A -> B -> Prop) (f : A -> B) l : (forall a, In a l -> P a (f a)) -> Forall2 P l (map f l).
Proof. induction l as [|a l IH]; intros H; simpl; constructor; [apply H; now left | apply IH; intros; apply H; now right]. Qed.

Section Find.
  Context {A : Type} (nm : A -> string).

  Lemma find_idx_some name t k :
    find_idx nm name t = Some k -> exists r, nth_error t k = Some r /\ nm r = name.
  Proof.
    revert k; induction t as [|a t IH]; simpl; intros k H; try discriminate.
    destruct (String.eqb (nm a) name) eqn:E.
    - injection H as <-. exists a; split; auto. now apply String.eqb_eq.
    - destruct (find_idx nm name t) as [j|] eqn:F; simpl in H; try discriminate.
      injection H as <-. destruct (IH j eq_refl) as (r & Hr & Hn). exists r; auto.
  Qed.

  Lemma existsb_eqb_in name l : existsb (String.eqb name) l = true <-> In name l.
  Proof.
    rewrite existsb_exists. split.
    - intros (x & Hx & E). apply String.eqb_eq in E. now subst.
    - intros H. exists name; split; auto. apply String.eqb_refl.
  Qed.

  Lemma find_idx_nodup t i r :
    nodupb (map nm t) = true -> nth_error t i = Some r -> find_idx nm (nm r) t = Some i.
  Proof.
    revert i; induction t as [|a t IH]; intros [|i] Hd Hn; simpl in *; try discriminate.
    - injection Hn as ->. now rewrite String.eqb_refl.
    - apply andb_true_iff in Hd as [Hnot Hd].
      destruct (String.eqb (nm a) (nm r)) eqn:E.
      + apply String.eqb_eq in E. exfalso.
        apply negb_true_iff in Hnot.
        assert (In (nm a) (map nm t)) as Hin.
        { rewrite E. apply in_map. eapply nth_error_In; eauto. }
        apply existsb_eqb_in in Hin. congruence.
      + rewrite (IH i Hd Hn). reflexivity.
  Qed.

  (* looking a name up after the value of one row has changed *)
  Lemma find_nth_upd {V} (d : V) t n i r v l :
    nodupb (map nm t) = true -> nth_error t i = Some r -> (i < List.length l)%nat ->
    match find_idx nm n t with Some k => nth k (upd i v l) d | None => d end =
    if String.eqb n (nm r) then v else match find_idx nm n t with Some k => nth k l d | None => d end.
  Proof.
    intros Hd Hr Hl. destruct (String.eqb n (nm r)) eqn:E.
    - apply String.eqb_eq in E; subst n. rewrite (find_idx_nodup t i r Hd Hr). now apply nth_upd_same.
    - destruct (find_idx nm n t) as [k|] eqn:F; auto.
      apply nth_upd_other. intros ->. apply find_idx_some in F as (r' & Hr' & Hn).
      rewrite Hr in Hr'. injection Hr' as <-. subst n. now rewrite String.eqb_refl in E.
  Qed.
End Find.

(* the three setters have one shape: index or slot unknown, value unchanged, value accepted, value rejected *)
Lemma setter_shape {R V} (I : pstate * bool -> Prop) (tr : option R) (tc : option V) (skip : V -> bool)
    (valid : R -> V -> bool) (put : R -> V -> pstate) s :
  I (s, true) -> I (s, false) ->
  (forall r cur, tr = Some r -> tc = Some cur -> valid r cur = true -> I (put r cur, true)) ->
  I (match tr, tc with
     | Some r, Some cur => if skip cur then (s, true) else if valid r cur then (put r cur, true) else (s, false)
     | _, _ => (s, false)
     end).
Proof.
  intros Ht Hf Hp. destruct tr as [r|]; [|exact Hf]. destruct tc as [cur|]; [|exact Hf].
  destruct (skip cur); [exact Ht|]. destruct (valid r cur) eqn:E; [apply Hp; auto | exact Hf].
Qed.

Lemma fold_set_inv {V} (I : pstate -> Prop) (f : nat -> V -> pstate -> pstate * bool) :
  (forall k v s, I s -> I (fst (f k v s))) -> forall vals k s, I s -> I (fst (fold_set f k vals s)).
Proof.
  intros Hf vals; induction vals as [|v vals IH]; intros k s Hs; simpl; auto.
  specialize (Hf k v s Hs). destruct (f k v s) as [s1 o1]. specialize (IH (S k) s1 Hf).
  destruct (fold_set f (S k) vals s1) as [s2 o2]. exact IH.
Qed.

Lemma frame_fold {V} (f : nat -> V -> pstate -> pstate * bool) {X} (proj : pstate -> X) :
  (forall k v s, proj (fst (f k v s)) = proj s) ->
  forall vals k s, proj (fst (fold_set f k vals s)) = proj s.
Proof.
  intros Hf vals k s. apply (fold_set_inv (fun s' => proj s' = proj s)); [|reflexivity].
  intros k' v s' <-. apply Hf.
Qed.

Lemma upd_same {A} k (v : A) l : nth_error l k = Some v -> upd k v l = l.
Proof.
  revert k; induction l as [|a l IH]; intros [|k] H; simpl in *; try discriminate; auto.
  - now injection H as ->.
  - f_equal; auto.
Qed.

Lemma firstn_upd_S {V} k (v : V) l : (k < List.length l)%nat -> firstn (S k) (upd k v l) = firstn k l ++ [v].
Proof. revert k; induction l as [|a l IH]; intros [|k] H; simpl in *; try lia; auto. f_equal. apply IH. lia. Qed.

(* An array [derive l] derived from the parameter values [l], with [app r v] what setting the parameter of row [r] to
   [v] does to it: if it follows every single update of the values, it follows the update of all of them in turn.
   ([rows] and [k] are general for the induction.) *)
Lemma fold_derive_upd {R V D} (tab : list R) (derive : list V -> D) (app : R -> V -> D -> D) :
  (forall i r v l, nth_error tab i = Some r -> (i < List.length l)%nat -> app r v (derive l) = derive (upd i v l)) ->
  forall vals l, List.length tab = List.length vals -> List.length l = List.length vals ->
  fold_left (fun d rv => app (fst rv) (snd rv) d) (combine tab vals) (derive l) = derive vals.
Proof.
  intros H vals l Ht Hl.
  enough (G : forall rows vs k l, rows = skipn k tab -> List.length rows = List.length vs ->
            List.length l = (k + List.length vs)%nat ->
            fold_left (fun d rv => app (fst rv) (snd rv) d) (combine rows vs) (derive l) = derive (firstn k l ++ vs))
    by (apply (G tab vals 0%nat l); auto).
  clear vals l Ht Hl. induction rows as [|r rows IH]; intros [|v vs] k l Hr Hlen Hl; simpl in *; try discriminate.
  - rewrite app_nil_r, firstn_all2 by lia. reflexivity.
  - symmetry in Hr. apply skipn_cons_inv in Hr as [Hk Hr].
    rewrite (H k r v l Hk), (IH vs (S k)), firstn_upd_S by (rewrite ?upd_length; auto; lia). now rewrite <- app_assoc.
Qed.

Section Inv.
  Variable btab : list brow.
  Variable itab : list irow.
  Variable rtab : list rrow.
  Hypothesis TOK : table_ok btab itab rtab = true.

  Notation set_bool := (set_bool btab).
  Notation set_int := (set_int itab).
  Notation set_real := (set_real rtab).
  Notation derive_i := (derive_i itab).
  Notation derive_r := (derive_r rtab).
  Notation step := (step btab itab rtab).
  Notation init := (init btab itab rtab).

  (* the invariant of the parameter state: every stored value is one its table row admits (valid or in range; the
     default where the row is not settable), and the derived values are those of the stored ones *)
  Definition bool_inv (r : brow) (v : bool) : Prop := b_settable r = true \/ v = b_def r.
  Definition int_inv (r : irow) (v : Z) : Prop := int_valid r v = true.
  Definition real_inv (r : rrow) (v : dbl) : Prop :=
    in_range (r_lo r) (r_up r) v = true /\ (r_settable r = true \/ deq v (r_def r) = true).

  Record Consistent (s : pstate) : Prop := {
    c_b : Forall2 bool_inv btab (bv s);
    c_i : Forall2 int_inv itab (iv s);
    c_r : Forall2 real_inv rtab (rv s);
    c_d : dv s = derive_i (iv s);
    c_t : tv s = derive_r (rv s)
  }.

  Lemma tok_parts :
    nodupb (map b_name btab) = true /\ nodupb (map i_name itab) = true /\ nodupb (map r_name rtab) = true
    /\ forallb irow_ok itab = true /\ forallb rrow_ok rtab = true.
  Proof.
    unfold table_ok in TOK. repeat (apply andb_true_iff in TOK as [TOK ?]). auto.
  Qed.

  Lemma i_def_valid r : In r itab -> int_valid r (i_def r) = true.
  Proof.
    intros Hr. destruct tok_parts as (_ & _ & _ & Hi & _). rewrite forallb_forall in Hi. specialize (Hi r Hr).
    unfold irow_ok in Hi. repeat (apply andb_true_iff in Hi as [Hi ?]). auto.
  Qed.

  Lemma r_def_in_range r : In r rtab -> in_range (r_lo r) (r_up r) (r_def r) = true.
  Proof. intros Hr. destruct tok_parts as (_ & _ & _ & _ & Ht). rewrite forallb_forall in Ht. exact (Ht r Hr). Qed.

  Lemma get_int_upd n i r v l :
    nth_error itab i = Some r -> (i < List.length l)%nat ->
    get_int itab n (upd i v l) = if String.eqb n (i_name r) then v else get_int itab n l.
  Proof. destruct tok_parts as (_ & Hd & _). exact (find_nth_upd i_name 0 itab n i r v l Hd). Qed.

  Lemma get_real_upd n i r v l :
    nth_error rtab i = Some r -> (i < List.length l)%nat ->
    get_real rtab n (upd i v l) = if String.eqb n (r_name r) then v else get_real rtab n l.
  Proof. destruct tok_parts as (_ & _ & Hd & _). exact (find_nth_upd r_name DNaN rtab n i r v l Hd). Qed.

  Lemma derive_i_upd i r v l :
    nth_error itab i = Some r -> (i < List.length l)%nat ->
    apply_ieff (i_name r) v (derive_i l) = derive_i (upd i v l).
  Proof.
    intros Hr Hl. unfold apply_ieff, ParamsModel.derive_i. rewrite combine_map_r, map_map.
    apply map_ext. intros [n f]; simpl. rewrite (get_int_upd n i r v l Hr Hl).
    destruct (String.eqb n (i_name r)); reflexivity.
  Qed.

  Lemma derive_r_upd i r v l :
    nth_error rtab i = Some r -> (i < List.length l)%nat ->
    apply_reff (r_name r) v (derive_r l) = derive_r (upd i v l).
  Proof.
    intros Hr Hl. unfold apply_reff, ParamsModel.derive_r. rewrite combine_map_r, map_map.
    apply map_ext. intros n; simpl. rewrite (get_real_upd n i r v l Hr Hl).
    destruct (String.eqb n (r_name r)); reflexivity.
  Qed.

  Lemma nth_error_lt {A} (l : list A) i v : nth_error l i = Some v -> (i < List.length l)%nat.
  Proof. intros H. apply nth_error_Some. congruence. Qed.

  Lemma set_bool_consistent ini i v s : Consistent s -> Consistent (fst (set_bool ini i v s)).
  Proof.
    intros C. unfold ParamsModel.set_bool. apply setter_shape; auto. intros r cur Hr Hc V. simpl.
    destruct C as [cb ci cr cd ct]. constructor; simpl; auto.
    eapply Forall2_upd; eauto. unfold bool_inv.
    unfold bool_valid in V. apply orb_true_iff in V as [V|V]; auto.
    apply Bool.eqb_prop in V. subst v.
    exact (Forall2_nth_error _ _ _ _ _ _ cb Hr Hc).
  Qed.

  Lemma set_int_consistent ini i v s : Consistent s -> Consistent (fst (set_int ini i v s)).
  Proof.
    intros C. unfold ParamsModel.set_int. apply setter_shape; auto. intros r cur Hr Hc V. simpl.
    destruct C as [cb ci cr cd ct]. constructor; simpl; auto.
    - eapply Forall2_upd; eauto.
    - rewrite cd. apply derive_i_upd; auto. eapply nth_error_lt; eauto.
  Qed.

  Lemma deq_in_range_l lo up a b : deq a b = true -> in_range lo up b = true -> True.
  Proof. auto. Qed.

  Lemma set_real_consistent ini i v s : Consistent s -> Consistent (fst (set_real ini i v s)).
  Proof.
    intros C. unfold ParamsModel.set_real. apply setter_shape; auto. intros r cur Hr Hc V. simpl.
    destruct C as [cb ci cr cd ct]. constructor; simpl; auto.
    - eapply Forall2_upd; eauto. unfold real_inv.
      unfold real_valid in V. apply andb_true_iff in V as [V1 V2]. split; auto.
      apply orb_true_iff in V2 as [V2|V2]; auto.
      pose proof (Forall2_nth_error _ _ _ _ _ _ cr Hr Hc) as [_ [Hs|Hd]]; auto.
      right. eapply deq_trans; eauto.
    - rewrite ct. apply derive_r_upd; auto. eapply nth_error_lt; eauto.
  Qed.

  Lemma set_seed_consistent n s : Consistent s -> Consistent (set_seed n s).
  Proof. intros [cb ci cr cd ct]; constructor; auto. Qed.

  (* I is kept by the three setters; then by every operation composed of them (reset_keeps) *)
  Definition setters_keep (I : pstate -> Prop) : Prop :=
    (forall ini k v s, I s -> I (fst (set_bool ini k v s))) /\
    (forall ini k v s, I s -> I (fst (set_int ini k v s))) /\
    (forall ini k v s, I s -> I (fst (set_real ini k v s))).

  Lemma setters_keep_consistent : setters_keep Consistent.
  Proof. split; [|split]; intros ini k v s; [apply set_bool_consistent | apply set_int_consistent | apply set_real_consistent]. Qed.

  Lemma reset_eq s :
    reset btab itab rtab s =
    fst (fold_set (set_real true) 0 (map r_def rtab)
           (fst (fold_set (set_int true) 0 (map i_def itab) (fst (fold_set (set_bool true) 0 (map b_def btab) s))))).
  Proof.
    unfold reset. destruct (fold_set (set_bool true) 0 (map b_def btab) s) as [s1 o1]. cbn [fst].
    destruct (fold_set (set_int true) 0 (map i_def itab) s1) as [s2 o2]. cbn [fst].
    destruct (fold_set (set_real true) 0 (map r_def rtab) s2) as [s3 o3]. reflexivity.
  Qed.

  Lemma reset_keeps I s : setters_keep I -> I s -> I (reset btab itab rtab s).
  Proof.
    intros (Hb & Hi & Hr) Hs. rewrite reset_eq.
    apply fold_set_inv; [apply Hr|]. apply fold_set_inv; [apply Hi|]. apply fold_set_inv; [apply Hb | exact Hs].
  Qed.

  Lemma init_consistent lp : Consistent (init lp).
  Proof.
    constructor; simpl; auto; apply Forall2_map_r.
    - intros r _. right; reflexivity.
    - exact i_def_valid.
    - intros r Hr. pose proof (r_def_in_range r Hr) as H. split; [exact H|].
      right. apply deq_refl. exact (in_range_not_nan _ _ _ H).
  Qed.

  Lemma fold_left_inv {O} (I : pstate -> Prop) (f : pstate -> O -> pstate) :
    (forall s o, I s -> I (f s o)) -> forall os s, I s -> I (fold_left f os s).
  Proof. intros Hf os; induction os; simpl; auto. Qed.

  (* a settings line leaves the state alone or is one setter call *)
  Lemma parse_line_cases (J : pstate * bool -> Prop) stod l s :
    (forall b, J (s, b)) -> (forall k v, J (set_bool true k v s)) -> (forall k v, J (set_int false k v s)) ->
    (forall k v, J (set_real true k v s)) -> (forall n, J (set_seed n s, true)) ->
    J (parse_line btab itab rtab stod l s).
  Proof.
    intros Hn Hb Hi Hr Hs. unfold parse_line. destruct (tokenise l) as [| |ty name val]; auto. unfold parse_tokens.
    destruct (has_prefix _ ty); [destruct (find_idx _ _ _); [destruct (bool_value val)|]; auto |].
    destruct (has_prefix _ ty); [destruct (find_idx _ _ _); [destruct (stoi val)|]; auto |].
    destruct (has_prefix _ ty); [destruct (find_idx _ _ _); [destruct (stod val)|]; auto |].
    destruct (has_prefix _ ty); [destruct (has_prefix _ name); [destruct (stoul val)|]; auto | auto].
  Qed.

  Lemma parse_line_consistent stod l s : Consistent s -> Consistent (fst (parse_line btab itab rtab stod l s)).
  Proof.
    intros C. apply (parse_line_cases (fun r => Consistent (fst r))); intros; simpl; auto using set_bool_consistent, set_int_consistent, set_real_consistent, set_seed_consistent.
  Qed.

  Lemma rat_effect_same name v r : rat_effect name v v r = r.
  Proof. unfold rat_effect. destruct (negb (String.eqb name "syncmode")); auto. now rewrite Z.eqb_refl. Qed.

  (* [s] with the derived components replaced *)
  Definition with_dv (d : list Z) (s : pstate) : pstate :=
    {| bv := bv s; iv := iv s; rv := rv s; seed := seed s; dv := d; tv := tv s; lpd := lpd s; rat := rat s |}.
  Definition with_tv (t : list dbl) (s : pstate) : pstate :=
    {| bv := bv s; iv := iv s; rv := rv s; seed := seed s; dv := dv s; tv := t; lpd := lpd s; rat := rat s |}.

  (* setting a parameter to the valid value it has only re-derives what depends on it *)
  Lemma set_bool_same k r v s :
    nth_error btab k = Some r -> nth_error (bv s) k = Some v -> set_bool true k v s = (s, true).
  Proof.
    intros Hr Hc. unfold ParamsModel.set_bool. rewrite Hr, Hc. simpl.
    unfold bool_valid. rewrite Bool.eqb_reflx, orb_true_r, (upd_same _ _ _ Hc). destruct s; reflexivity.
  Qed.

  Lemma set_int_same k r v s :
    nth_error itab k = Some r -> nth_error (iv s) k = Some v -> int_inv r v ->
    set_int true k v s = (with_dv (apply_ieff (i_name r) v (dv s)) s, true).
  Proof.
    intros Hr Hc Hv. unfold ParamsModel.set_int. rewrite Hr, Hc. simpl. unfold int_inv in Hv. rewrite Hv.
    rewrite (upd_same _ _ _ Hc). rewrite rat_effect_same. reflexivity.
  Qed.

  Lemma set_real_same k r v s :
    nth_error rtab k = Some r -> nth_error (rv s) k = Some v -> real_inv r v ->
    set_real true k v s = (with_tv (apply_reff (r_name r) v (tv s)) s, true).
  Proof.
    intros Hr Hc [Hin Hset]. unfold ParamsModel.set_real. rewrite Hr, Hc. simpl.
    assert (deq v v = true) as Hvv by (apply deq_refl; eapply in_range_not_nan; eauto).
    unfold real_valid. rewrite Hin, Hvv, orb_true_r. simpl. now rewrite (upd_same _ _ _ Hc).
  Qed.

  Definition others_eq (s s' : pstate) : Prop := seed s' = seed s /\ lpd s' = lpd s.

  (* ... so the setters run over the values the state already holds leave everything but the derived array alone ([k] is
     general for the induction; setSettings starts at 0) *)
  Lemma fold_set_bool_all : forall rows vals k s,
    Forall2 bool_inv rows vals -> rows = skipn k btab -> vals = skipn k (bv s) ->
    fold_set (set_bool true) k vals s = (s, true).
  Proof.
    intros rows vals k s H; revert k; induction H as [|r v rows vals _ H IH]; intros k Ht Hv; simpl; auto.
    symmetry in Ht, Hv. apply skipn_cons_inv in Ht as [Hr Ht]. apply skipn_cons_inv in Hv as [Hc Hv].
    rewrite (set_bool_same k r v s Hr Hc), IH; auto.
  Qed.

  Lemma fold_set_int_all : forall rows vals k s,
    Forall2 int_inv rows vals -> rows = skipn k itab -> vals = skipn k (iv s) ->
    fold_set (set_int true) k vals s =
    (with_dv (fold_left (fun d rv => apply_ieff (i_name (fst rv)) (snd rv) d) (combine rows vals) (dv s)) s, true).
  Proof.
    intros rows vals k s H; revert k s; induction H as [|r v rows vals Hrv H IH]; intros k s Ht Hv; simpl.
    - destruct s; reflexivity.
    - symmetry in Ht, Hv. apply skipn_cons_inv in Ht as [Hr Ht]. apply skipn_cons_inv in Hv as [Hc Hv].
      rewrite (set_int_same k r v s Hr Hc Hrv), IH; auto.
  Qed.

  Lemma fold_set_real_all : forall rows vals k s,
    Forall2 real_inv rows vals -> rows = skipn k rtab -> vals = skipn k (rv s) ->
    fold_set (set_real true) k vals s =
    (with_tv (fold_left (fun d rv => apply_reff (r_name (fst rv)) (snd rv) d) (combine rows vals) (tv s)) s, true).
  Proof.
    intros rows vals k s H; revert k s; induction H as [|r v rows vals Hrv H IH]; intros k s Ht Hv; simpl.
    - destruct s; reflexivity.
    - symmetry in Ht, Hv. apply skipn_cons_inv in Ht as [Hr Ht]. apply skipn_cons_inv in Hv as [Hc Hv].
      rewrite (set_real_same k r v s Hr Hc Hrv), IH; auto.
  Qed.

  (* setSettings first overwrites the value arrays, then runs every setter with init = true *)
  Definition overwritten (nb : list bool) (ni : list Z) (nr : list dbl) (s : pstate) : pstate :=
    {| bv := nb; iv := ni; rv := nr; seed := seed s; dv := dv s; tv := tv s; lpd := lpd s;
       rat := if get_int itab "syncmode" ni =? get_int itab "syncmode" (iv s) then rat s else -1 |}.

  Lemma set_settings_fst nb ni nr s :
    fst (set_settings btab itab rtab nb ni nr s) =
    fst (fold_set (set_real true) 0 nr (fst (fold_set (set_int true) 0 ni (fst (fold_set (set_bool true) 0 nb (overwritten nb ni nr s)))))).
  Proof.
    unfold set_settings. fold (overwritten nb ni nr s).
    destruct (fold_set (set_bool true) 0 nb (overwritten nb ni nr s)) as [s1 o1]. cbn [fst].
    destruct (fold_set (set_int true) 0 ni s1) as [s2 o2]. cbn [fst].
    destruct (fold_set (set_real true) 0 nr s2) as [s3 o3]. reflexivity.
  Qed.

  (* values taken from a consistent state are accepted by setSettings and the components in use follow them *)
  Lemma set_settings_consistent nb ni nr s :
    Consistent s -> Forall2 bool_inv btab nb -> Forall2 int_inv itab ni -> Forall2 real_inv rtab nr ->
    Consistent (fst (set_settings btab itab rtab nb ni nr s)).
  Proof.
    intros C Hb Hi Hr. rewrite set_settings_fst.
    rewrite (fold_set_bool_all btab nb 0%nat (overwritten nb ni nr s) Hb eq_refl eq_refl). cbn [fst].
    rewrite (fold_set_int_all itab ni 0%nat (overwritten nb ni nr s) Hi eq_refl eq_refl). cbn [fst].
    erewrite (fold_set_real_all rtab nr 0%nat) by (try exact Hr; reflexivity). cbn [fst].
    (* the components in use were derived from the old values and follow each of the setters *)
    constructor; cbn; auto.
    - rewrite (c_d s C). apply (fold_derive_upd itab derive_i (fun r => apply_ieff (i_name r))).
      + intros. now apply derive_i_upd.
      + exact (Forall2_length _ _ _ Hi).
      + rewrite <- (Forall2_length _ _ _ (c_i s C)). exact (Forall2_length _ _ _ Hi).
    - rewrite (c_t s C). apply (fold_derive_upd rtab derive_r (fun r => apply_reff (r_name r))).
      + intros. now apply derive_r_upd.
      + exact (Forall2_length _ _ _ Hr).
      + rewrite <- (Forall2_length _ _ _ (c_r s C)). exact (Forall2_length _ _ _ Hr).
  Qed.

  Theorem step_consistent s o : Consistent s -> Consistent (fst (step s o)).
  Proof.
    intros C. destruct o as [i v|i v|i v|n|l sd|ls| | |[[ob oi] orl]]; simpl.
    - now apply set_bool_consistent.
    - now apply set_int_consistent.
    - now apply set_real_consistent.
    - now apply set_seed_consistent.
    - now apply parse_line_consistent.
    - apply fold_left_inv; auto. intros; now apply parse_line_consistent.
    - apply reset_keeps; [apply setters_keep_consistent | exact C].
    - destruct C as [cb ci cr cd ct]. constructor; auto.
    - set (o3 := fold_left _ orl _).
      assert (Consistent o3) as C3.
      { unfold o3. repeat apply fold_left_inv;
          try (intros; first [now apply set_bool_consistent | now apply set_int_consistent | now apply set_real_consistent]).
        apply init_consistent. }
      destruct C3 as [cb ci cr _ _].
      exact (set_settings_consistent (bv o3) (iv o3) (rv o3) s C cb ci cr).
  Qed.

  Theorem run_keeps s ops : Consistent s -> Consistent (run btab itab rtab s ops).
  Proof. intros C. unfold run. apply fold_left_inv; [intros; now apply step_consistent | exact C]. Qed.

  Theorem run_consistent lp ops : Consistent (run btab itab rtab (init lp) ops).
  Proof. apply run_keeps, init_consistent. Qed.

  Theorem set_int_accepts i r v s :
    Consistent s -> nth_error itab i = Some r -> int_valid r v = true ->
    let res := set_int true i v s in
    snd res = true /\ nth_error (iv (fst res)) i = Some v /\
    (forall k, k <> i -> nth_error (iv (fst res)) k = nth_error (iv s) k) /\
    bv (fst res) = bv s /\ rv (fst res) = rv s /\ seed (fst res) = seed s /\ lpd (fst res) = lpd s.
  Proof.
    intros C Hr Hv. unfold ParamsModel.set_int. rewrite Hr.
    destruct (Forall2_nth_error_l _ _ _ _ _ (c_i s C) Hr) as (cur & Hc & _). rewrite Hc.
    pose proof (nth_error_lt _ _ _ Hc) as Hl.
    simpl. rewrite Hv. simpl. repeat split; auto.
    - now apply nth_error_upd_same.
    - intros k Hk. apply nth_error_upd_other. congruence.
  Qed.

  Theorem set_int_rejects ini i r v s :
    nth_error itab i = Some r -> int_valid r v = false ->
    (ini = true \/ nth_error (iv s) i <> Some v) ->
    set_int ini i v s = (s, false).
  Proof.
    intros Hr Hv Hne. unfold ParamsModel.set_int. rewrite Hr.
    destruct (nth_error (iv s) i) as [cur|] eqn:Hc; auto.
    rewrite Hv. destruct Hne as [->|Hne]; simpl; auto.
    destruct (v =? cur) eqn:E; simpl; auto.
    - apply Z.eqb_eq in E. congruence.
    - now rewrite andb_false_r.
  Qed.

  Theorem set_real_accepts i r v s :
    Consistent s -> nth_error rtab i = Some r -> in_range (r_lo r) (r_up r) v = true -> r_settable r = true ->
    let res := set_real true i v s in
    snd res = true /\ nth_error (rv (fst res)) i = Some v /\
    (forall k, k <> i -> nth_error (rv (fst res)) k = nth_error (rv s) k) /\
    bv (fst res) = bv s /\ iv (fst res) = iv s /\ seed (fst res) = seed s /\ lpd (fst res) = lpd s.
  Proof.
    intros C Hr Hv Hs. unfold ParamsModel.set_real. rewrite Hr.
    destruct (Forall2_nth_error_l _ _ _ _ _ (c_r s C) Hr) as (cur & Hc & _). rewrite Hc.
    pose proof (nth_error_lt _ _ _ Hc) as Hl.
    simpl. unfold real_valid. rewrite Hv, Hs. simpl. repeat split; auto.
    - now apply nth_error_upd_same.
    - intros k Hk. apply nth_error_upd_other. congruence.
  Qed.

  (* out of range, NaN included: rejected, nothing changes *)
  Theorem set_real_rejects i r v s :
    nth_error rtab i = Some r -> in_range (r_lo r) (r_up r) v = false ->
    set_real true i v s = (s, false).
  Proof.
    intros Hr Hv. unfold ParamsModel.set_real. rewrite Hr.
    destruct (nth_error (rv s) i) as [cur|] eqn:Hc; auto.
    simpl. unfold real_valid. now rewrite Hv.
  Qed.

  Corollary set_real_rejects_nan i r s : nth_error rtab i = Some r -> set_real true i DNaN s = (s, false).
  Proof. intros Hr. eapply set_real_rejects; eauto. apply nan_not_in_range. Qed.

  Theorem set_bool_accepts i r v s :
    Consistent s -> nth_error btab i = Some r -> b_settable r = true ->
    let res := set_bool true i v s in
    snd res = true /\ nth_error (bv (fst res)) i = Some v /\
    (forall k, k <> i -> nth_error (bv (fst res)) k = nth_error (bv s) k) /\
    iv (fst res) = iv s /\ rv (fst res) = rv s /\ seed (fst res) = seed s /\ lpd (fst res) = lpd s /\
    dv (fst res) = dv s /\ tv (fst res) = tv s.
  Proof.
    intros C Hr Hs. unfold ParamsModel.set_bool. rewrite Hr.
    destruct (Forall2_nth_error_l _ _ _ _ _ (c_b s C) Hr) as (cur & Hc & _). rewrite Hc.
    pose proof (nth_error_lt _ _ _ Hc) as Hl.
    simpl. unfold bool_valid. rewrite Hs. simpl. repeat split; auto.
    - now apply nth_error_upd_same.
    - intros k Hk. apply nth_error_upd_other. congruence.
  Qed.

  (* every operation that reports failure leaves the whole state untouched *)
  Theorem setter_false_noop :
    (forall ini i v s, snd (set_bool ini i v s) = false -> fst (set_bool ini i v s) = s) /\
    (forall ini i v s, snd (set_int ini i v s) = false -> fst (set_int ini i v s) = s) /\
    (forall ini i v s, snd (set_real ini i v s) = false -> fst (set_real ini i v s) = s).
  Proof.
    repeat split; intros ini i v s; unfold ParamsModel.set_bool, ParamsModel.set_int, ParamsModel.set_real;
      apply setter_shape; intros; try reflexivity; discriminate.
  Qed.

  Theorem parse_false_noop stod l s :
    snd (parse_line btab itab rtab stod l s) = false -> fst (parse_line btab itab rtab stod l s) = s.
  Proof.
    destruct setter_false_noop as (Hb & Hi & Hr).
    apply (parse_line_cases (fun r => snd r = false -> fst r = s)); intros; auto. discriminate.
  Qed.

  Lemma setters_keep_lpd x : setters_keep (fun s => lpd s = x).
  Proof.
    repeat split; intros ini k v s <-; unfold ParamsModel.set_bool, ParamsModel.set_int, ParamsModel.set_real;
      apply setter_shape; reflexivity.
  Qed.

  Lemma parse_lpd stod l s : lpd (fst (parse_line btab itab rtab stod l s)) = lpd s.
  Proof.
    destruct (setters_keep_lpd (lpd s)) as (Hb & Hi & Hr).
    apply (parse_line_cases (fun r => lpd (fst r) = lpd s)); intros; auto.
  Qed.

  (* no parameter operation touches the stored LP other than through sense (dv) and offset (tv) *)
  Theorem step_lpd s o : lpd (fst (step s o)) = lpd s.
  Proof.
    destruct (setters_keep_lpd (lpd s)) as (Hb & Hi & Hr).
    destruct o as [i v|i v|i v|n|l sd|ls| | |[[ob oi] orl]]; simpl; auto.
    - apply parse_lpd.
    - apply (fold_left_inv (fun s' => lpd s' = lpd s)); [|reflexivity]. intros s' l <-. apply parse_lpd.
    - apply (reset_keeps (fun s' => lpd s' = lpd s)); [apply setters_keep_lpd | reflexivity].
    - rewrite set_settings_fst.
      apply fold_set_inv; [apply Hr|]. apply fold_set_inv; [apply Hi|]. apply fold_set_inv; [apply Hb | reflexivity].
  Qed.

  (* the rational LP is touched only by a change of the synchronisation mode *)
  Theorem rat_untouched_by_other_setters :
    (forall ini k v s, rat (fst (set_bool ini k v s)) = rat s) /\
    (forall ini k v s, rat (fst (set_real ini k v s)) = rat s) /\
    (forall n s, rat (set_seed n s) = rat s) /\
    (forall ini k v s r, nth_error itab k = Some r -> i_name r <> "syncmode"%string -> rat (fst (set_int ini k v s)) = rat s).
  Proof.
    repeat split.
    - intros. unfold ParamsModel.set_bool. apply setter_shape; reflexivity.
    - intros. unfold ParamsModel.set_real. apply setter_shape; reflexivity.
    - intros ini k v s r Hr Hn. unfold ParamsModel.set_int. apply setter_shape; try reflexivity.
      intros r' cur Hr' _ _. rewrite Hr in Hr'. injection Hr' as <-. simpl.
      unfold rat_effect. apply String.eqb_neq in Hn. now rewrite Hn.
  Qed.

  (* switching the mode: ONLYREAL drops it, AUTO synchronises it from the floating-point LP only when coming from ONLYREAL
     (never from MANUAL: rational data entered there is kept verbatim), MANUAL creates an empty one only if there is none *)
  Theorem rat_on_syncmode k r cur v s :
    nth_error itab k = Some r -> i_name r = "syncmode"%string -> nth_error (iv s) k = Some cur -> int_valid r v = true ->
    rat (fst (set_int true k v s)) =
      (if v =? cur then rat s else if v =? 0 then 0 else if v =? 1 then (if cur =? 0 then 2 else rat s)
       else if v =? 2 then (if rat s =? 0 then 3 else rat s) else rat s).
  Proof.
    intros Hr Hn Hc Hv. unfold ParamsModel.set_int. rewrite Hr, Hc. simpl. rewrite Hv. simpl.
    unfold rat_effect. rewrite Hn. reflexivity.
  Qed.

  (* setters that store their value at their own index, run over all indices, overwrite the whole array; [G k v] is the
     condition under which [f k v] stores [v] *)
  Lemma fold_set_overwrites {V} (f : nat -> V -> pstate -> pstate * bool) (proj : pstate -> list V) (G : nat -> V -> Prop) :
    (forall k v s, Consistent s -> Consistent (fst (f k v s))) ->
    (forall k v s, Consistent s -> G k v -> proj (fst (f k v s)) = upd k v (proj s)) ->
    forall vals k s, Consistent s -> (forall j v, nth_error vals j = Some v -> G (k + j)%nat v) ->
      List.length (proj s) = (k + List.length vals)%nat ->
      proj (fst (fold_set f k vals s)) = firstn k (proj s) ++ vals.
  Proof.
    intros Hc Hp vals; induction vals as [|v vals IH]; intros k s C HG Hl; cbn [fold_set List.length] in *.
    - cbn [fst]. rewrite app_nil_r, firstn_all2; auto. lia.
    - assert (G k v) as Gk by (specialize (HG 0%nat v eq_refl); now rewrite Nat.add_0_r in HG).
      pose proof (Hc k v s C) as C1. pose proof (Hp k v s C Gk) as P1.
      destruct (f k v s) as [s1 o1]. cbn [fst] in C1, P1.
      specialize (IH (S k) s1 C1). destruct (fold_set f (S k) vals s1) as [s2 o2]. cbn [fst] in *.
      rewrite IH, P1.
      + rewrite firstn_upd_S by lia. now rewrite <- app_assoc.
      + intros j v' Hj. replace (S k + j)%nat with (k + S j)%nat by lia. apply HG; exact Hj.
      + rewrite P1, upd_length. lia.
  Qed.

  (* the defaults of a table, set in turn by a setter that stores each at its index, overwrite the whole array *)
  Lemma fold_set_defaults {R V} (tab : list R) (def : R -> V) (f : nat -> V -> pstate -> pstate * bool)
      (proj : pstate -> list V) (inv : R -> V -> Prop) :
    (forall k v s, Consistent s -> Consistent (fst (f k v s))) ->
    (forall k r s, Consistent s -> nth_error tab k = Some r -> proj (fst (f k (def r) s)) = upd k (def r) (proj s)) ->
    forall s, Consistent s -> Forall2 inv tab (proj s) -> proj (fst (fold_set f 0 (map def tab) s)) = map def tab.
  Proof.
    intros Hc Hp s C HF.
    apply (fold_set_overwrites f proj (fun k v => exists r, nth_error tab k = Some r /\ v = def r)); auto.
    - intros k v s0 C0 (r & Hr & ->). now apply Hp.
    - intros j v Hj. now apply nth_error_map_inv.
    - rewrite map_length. symmetry. apply (Forall2_length _ _ _ HF).
  Qed.

  Lemma deq_sym a b : deq a b = true -> deq b a = true.
  Proof.
    destruct a as [| | |m1 e1], b as [| | |m2 e2]; simpl; auto. unfold dcmp_fin.
    rewrite (Z.min_comm e2 e1). rewrite (Z.compare_antisym (m1 * _) (m2 * _)).
    destruct (m1 * 2 ^ (e1 - Z.min e1 e2) ?= m2 * 2 ^ (e2 - Z.min e1 e2)); simpl; auto.
  Qed.

  (* in a consistent state the default of a parameter is accepted at its index *)
  Lemma set_bool_default k r s :
    Consistent s -> nth_error btab k = Some r -> bv (fst (set_bool true k (b_def r) s)) = upd k (b_def r) (bv s).
  Proof.
    intros C Hr. unfold ParamsModel.set_bool. rewrite Hr.
    destruct (Forall2_nth_error_l _ _ _ _ _ (c_b s C) Hr) as (cur & -> & Hinv). simpl.
    assert (bool_valid r cur (b_def r) = true) as ->; [|reflexivity].
    unfold bool_valid. destruct Hinv as [->| ->]; auto. now rewrite Bool.eqb_reflx, orb_true_r.
  Qed.

  Lemma set_int_default k r s :
    Consistent s -> nth_error itab k = Some r -> iv (fst (set_int true k (i_def r) s)) = upd k (i_def r) (iv s).
  Proof.
    intros C Hr. unfold ParamsModel.set_int. rewrite Hr.
    destruct (Forall2_nth_error_l _ _ _ _ _ (c_i s C) Hr) as (cur & -> & _). simpl.
    now rewrite (i_def_valid r (nth_error_In _ _ Hr)).
  Qed.

  Lemma set_real_default k r s :
    Consistent s -> nth_error rtab k = Some r -> rv (fst (set_real true k (r_def r) s)) = upd k (r_def r) (rv s).
  Proof.
    intros C Hr. unfold ParamsModel.set_real. rewrite Hr.
    destruct (Forall2_nth_error_l _ _ _ _ _ (c_r s C) Hr) as (cur & -> & _ & Hinv). simpl.
    assert (real_valid r cur (r_def r) = true) as ->; [|reflexivity].
    unfold real_valid. rewrite (r_def_in_range r (nth_error_In _ _ Hr)). simpl.
    destruct Hinv as [->|D]; auto. rewrite (deq_sym _ _ D). apply orb_true_r.
  Qed.

  Theorem reset_restores_defaults s lp :
    Consistent s ->
    let s' := reset btab itab rtab s in
    bv s' = bv (init lp) /\ iv s' = iv (init lp) /\ rv s' = rv (init lp) /\
    dv s' = dv (init lp) /\ tv s' = tv (init lp) /\ seed s' = seed s /\ lpd s' = lpd s.
  Proof.
    intros C. pose proof (reset_keeps Consistent s setters_keep_consistent C) as CR.
    rewrite reset_eq in *. destruct setters_keep_consistent as (Kb & Ki & Kr).
    set (s1 := fst (fold_set (set_bool true) 0 (map b_def btab) s)) in *.
    set (s2 := fst (fold_set (set_int true) 0 (map i_def itab) s1)) in *.
    set (s3 := fst (fold_set (set_real true) 0 (map r_def rtab) s2)) in *.
    assert (Consistent s1) as C1 by (apply fold_set_inv; [apply Kb | exact C]).
    assert (Consistent s2) as C2 by (apply fold_set_inv; [apply Ki | exact C1]).
    (* each fold overwrites its own array with the defaults ... *)
    assert (bv s1 = map b_def btab) as B1
      by (apply (fold_set_defaults btab b_def _ bv bool_inv); [apply Kb | intros; now apply set_bool_default | exact C | exact (c_b s C)]).
    assert (iv s2 = map i_def itab) as I2
      by (apply (fold_set_defaults itab i_def _ iv int_inv); [apply Ki | intros; now apply set_int_default | exact C1 | exact (c_i s1 C1)]).
    assert (rv s3 = map r_def rtab) as R3
      by (apply (fold_set_defaults rtab r_def _ rv real_inv); [apply Kr | intros; now apply set_real_default | exact C2 | exact (c_r s2 C2)]).
    (* ... and leaves the arrays before it, the seed and the LP alone *)
    assert ((seed s1, lpd s1) = (seed s, lpd s)) as F1.
    { apply (frame_fold (set_bool true) (fun s => (seed s, lpd s))).
      intros. unfold ParamsModel.set_bool. apply setter_shape; reflexivity. }
    assert ((bv s2, seed s2, lpd s2) = (bv s1, seed s1, lpd s1)) as F2.
    { apply (frame_fold (set_int true) (fun s => (bv s, seed s, lpd s))).
      intros. unfold ParamsModel.set_int. apply setter_shape; reflexivity. }
    assert ((bv s3, iv s3, seed s3, lpd s3) = (bv s2, iv s2, seed s2, lpd s2)) as F3.
    { apply (frame_fold (set_real true) (fun s => (bv s, iv s, seed s, lpd s))).
      intros. unfold ParamsModel.set_real. apply setter_shape; reflexivity. }
    injection F1 as S1 L1. injection F2 as B2 S2 L2. injection F3 as B3 I3 S3 L3.
    cbv zeta. rewrite (c_d s3 CR), (c_t s3 CR), R3, I3, I2. simpl. repeat split; congruence.
  Qed.
End Inv.

(* a token of the line format that saveSettingsFile writes, before the separator [sep] (58 ':' after the type, 61 '=' after the
   name, -1 for the value, which has none; 32 is the blank) *)
Definition clean (sep : Z) (t : list Z) : Prop :=
  Forall (fun c => is_blank c = false /\ is_eol c = false /\ c <> 0 /\ c <> sep) t.

Lemma span_tok_prefix sep t rest :
  clean sep t -> (match rest with [] => True | c :: _ => is_blank c = true \/ is_eol c = true \/ c = sep end) ->
  span_tok sep (t ++ rest) = (t, rest).
Proof.
  induction 1 as [|c t (Hb & He & Hz & Hs) H IH]; intros Hr; cbn [app span_tok].
  - destruct rest as [|c r]; auto. cbn [span_tok].
    destruct Hr as [H1|[H1|H1]].
    + now rewrite H1.
    + now rewrite H1, orb_true_r.
    + subst c. now rewrite Z.eqb_refl, !orb_true_r.
  - rewrite Hb, He. apply Z.eqb_neq in Hs. rewrite Hs. cbn [orb]. now rewrite IH.
Qed.

Lemma skipws_clean sep c t : clean sep (c :: t) -> skipws (c :: t) = c :: t.
Proof. intros H. inversion H as [|? ? (Hb & _) _]; subst. simpl. now rewrite Hb. Qed.

Lemma at_end_clean sep c t : clean sep (c :: t) -> at_end (c :: t) = false.
Proof. intros H. inversion H as [|? ? (_ & He & _) _]; subst. exact He. Qed.

Lemma skipws_blanks pad l : Forall (fun c => is_blank c = true) pad -> skipws (pad ++ l) = skipws l.
Proof. induction 1 as [|c pad Hc _ IH]; cbn [app skipws]; [reflexivity | now rewrite Hc]. Qed.

(* a clean token, blanks, the separator: one field *)
Lemma field_clean sep t pad rest :
  clean sep t -> t <> [] -> is_blank sep = false -> Forall (fun c => is_blank c = true) pad ->
  field sep (t ++ pad ++ sep :: rest) = FOk t rest.
Proof.
  intros Ct Nt Hs Hp. unfold field. destruct t as [|c t]; [congruence|].
  assert (skipws ((c :: t) ++ pad ++ sep :: rest) = (c :: t) ++ pad ++ sep :: rest) as ->.
  { pose proof (Forall_inv Ct) as (Hb & _). cbn [app skipws]. now rewrite Hb. }
  assert (at_end ((c :: t) ++ pad ++ sep :: rest) = false) as -> by exact (at_end_clean sep c t Ct).
  rewrite span_tok_prefix; [|exact Ct|].
  - unfold expect_sep. destruct Hp as [|p pad Hp Hpad]; cbn [app]; [now rewrite Z.eqb_refl|].
    assert ((p =? sep) = false) as -> by (apply Z.eqb_neq; intros ->; congruence).
    rewrite (skipws_blanks pad _ Hpad). cbn [skipws]. now rewrite Hs, Z.eqb_refl.
  - destruct Hp as [|p pad Hp _]; cbn [app]; auto.
Qed.

Lemma value_clean v pad :
  clean (-1) v -> v <> [] -> Forall (fun c => is_blank c = true) pad -> value (pad ++ v) = Some v.
Proof.
  intros Cv Nv Hp. unfold value. rewrite (skipws_blanks pad v Hp). destruct v as [|c v]; [congruence|].
  rewrite (skipws_clean _ c v Cv), (at_end_clean _ c v Cv).
  rewrite <- (app_nil_r (c :: v)) at 1. now rewrite span_tok_prefix.
Qed.

(* "type:name = value" *)
Theorem tokenise_canonical ty name val :
  ty <> [] -> name <> [] -> val <> [] -> clean 58 ty -> clean 61 name -> clean (-1) val ->
  tokenise (ty ++ [58] ++ name ++ [32; 61; 32] ++ val) = TOk ty name val.
Proof.
  intros Nt Nn Nv Ct Cn Cv. rewrite tokenise_eq.
  assert (forall sep t, clean sep t -> Forall (fun c => c <> 0) t) as NZ.
  { intros sep t H. eapply Forall_impl; [|exact H]. simpl. tauto. }
  assert (cstr (ty ++ [58] ++ name ++ [32; 61; 32] ++ val) = ty ++ [58] ++ name ++ [32; 61; 32] ++ val) as ->.
  { rewrite cstr_app_nonul by eauto. f_equal. simpl. f_equal. rewrite cstr_app_nonul by eauto. f_equal.
    simpl. do 3 f_equal. rewrite <- (app_nil_r val) at 1. rewrite cstr_app_nonul by eauto. simpl. now rewrite app_nil_r. }
  change (ty ++ [58] ++ name ++ [32; 61; 32] ++ val) with (ty ++ [] ++ 58 :: name ++ [32] ++ 61 :: [32] ++ val).
  rewrite field_clean, field_clean, value_clean; auto; repeat constructor.
Qed.
