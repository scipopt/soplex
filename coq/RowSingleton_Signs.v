(* C08 - RowSingletonPS, the branch "the bound implied by the singleton row coincides with the OPPOSITE original bound of x_j" (exact
   comparisons): which of the row and the column becomes basic is decided by the sign of the reduced cost, and the decision gives
   multipliers of the right sign (complementary slackness in minimisation form) for the row and for the column. *)
From Coq Require Import QArith Qabs List Bool Arith Lia Lqa Setoid.
From SV Require Import Vec LP Cert PostsolveModel Postsolve_Proofs RowSingleton_Proofs.
Import ListNotations.
Local Open Scope Q_scope.

Lemma Qdiv_sign r a : ~ a == 0 -> (0 < r / a <-> 0 < r * a) /\ (r / a < 0 <-> r * a < 0).
Proof.
  intros Ha. assert (E : r / a == r * a * (/ a * / a)) by (field; exact Ha).
  assert (S : 0 < / a * / a).
  { destruct (Qlt_le_dec 0 a) as [P|N].
    - pose proof (Qinv_lt_0_compat a P). nra.
    - assert (P : 0 < - a) by (destruct (Qeq_dec a 0); [contradiction | lra]).
      pose proof (Qinv_lt_0_compat _ P). assert (/ - a == - / a) by (field; exact Ha). nra. }
  rewrite E. split; split; intros; nra.
Qed.

(* x_j basic with y_i = r / a: x sits at the bound the row implies from above (r < 0) or from below (0 < r), and the side of
   the row behind that bound is the one the sign of y_i needs *)
Lemma col_basic_signs lhs rhs a r x : ~ a == 0 ->
  (r < 0 /\ (if Qltb' 0 a then rhs / a else lhs / a) == x) \/ (0 < r /\ (if Qltb' 0 a then lhs / a else rhs / a) == x) ->
  (r / a < 0 -> rhs == a * x) /\ (0 < r / a -> lhs == a * x).
Proof.
  intros Ha H. destruct (Qdiv_sign r a Ha) as [Sp Sn].
  destruct (Qltb'_spec 0 a) as [P|N]; destruct H as [[Hr E]|[Hr E]]; split; intros Hy;
    (apply Sp in Hy || apply Sn in Hy); try (exfalso; nra); rewrite <- E; field; exact Ha.
Qed.

Section OppositeBound.
  Variables (inf : Q) (i j : nat) (lhs rhs aij val oldLo oldUp : Q) (t0 : st).
  (* up = false: the UPPER bound the row implies equals the variable's own LOWER bound; up = true: the mirror image, the
     implied LOWER bound equals the own UPPER bound (x -> - x, a_ij -> - a_ij exchanges the two) *)
  Variable up : bool.
  Let c := exact_cmps inf.
  Let newLo := if Qltb' 0 aij then lhs / aij else rhs / aij.
  Let newUp := if Qltb' 0 aij then rhs / aij else lhs / aij.
  (* the reduced cost pushes x_j away from its own bound *)
  Let away := if up then Qltb' 0 (gr t0 j) else Qltb' (gr t0 j) 0.

  Hypothesis Hst : gcs t0 j = FIXED.
  Hypothesis H2 : (Qleb newLo oldLo && Qleb oldUp newUp) = false.
  Hypothesis H3 : Qeq_bool newLo newUp = false.
  Hypothesis H4 : if up then Qeq_bool newLo oldUp = true else Qeq_bool newLo oldUp = false /\ Qeq_bool newUp oldLo = true.

  (* the decision in this branch *)
  Lemma rs_decide_opposite :
    rs_decide c t0 i j lhs rhs aij val oldLo oldUp 0 =
    if away then rs_col_basic t0 i j val aij (Qeq_bool (lhs / aij) (gx t0 j))
    else rs_slack_basic t0 i j 0 val false (Some (if up then ON_UPPER else ON_LOWER)).
  Proof.
    unfold rs_decide. rewrite Hst. cbv zeta. fold newLo newUp.
    unfold c. cbn [exact_cmps eqrel_f le_mf ge_pf]. rewrite H2, H3.
    destruct up; [rewrite H4 | destruct H4 as [-> ->]]; reflexivity.
  Qed.

  (* signs: x_j sits at its own bound, where the implied one meets it; val is the reduced cost of x_j without the row *)
  Hypothesis Ha : ~ aij == 0.
  Hypothesis Hx : gx t0 j == if up then oldUp else oldLo.
  Hypothesis Hv : val == gr t0 j.

  (* either outcome: x_j keeps its value; x_j basic (with the reduced cost pointing into the row) or the row basic *)
  Lemma decided_signs (b on_lhs : bool) cst :
    (b = true -> (gr t0 j < 0 /\ newUp == gx t0 j) \/ (0 < gr t0 j /\ newLo == gx t0 j)) ->
    let t := if b then rs_col_basic t0 i j val aij on_lhs else rs_slack_basic t0 i j 0 val false cst in
    (gy t i < 0 -> rhs == aij * gx t j) /\ (0 < gy t i -> lhs == aij * gx t j) /\
    gx t j = gx t0 j /\ gr t j == if b then 0 else gr t0 j.
  Proof.
    intros Hb. destruct b; cbv zeta iota.
    - (* y_i = val / a_ij *)
      rewrite rs_col_basic_eq. unfold gy, gx, gr in *; cbn [sy sx sr]. rewrite !vnth_qupd_same.
      destruct (col_basic_signs lhs rhs aij val (vnth (sx t0) j) Ha) as [A B];
        [rewrite Hv; exact (Hb eq_refl) | repeat split; auto; reflexivity].
    - (* y_i = 0, r_j = val *)
      rewrite rs_slack_basic_eq. unfold gy, gx, gr in *; cbn [sy sx sr]. rewrite !vnth_qupd_same.
      repeat split; intros; lra.
  Qed.

  Let t' := rs_decide c t0 i j lhs rhs aij val oldLo oldUp 0.

  Theorem opposite_bound_signs :
    (* row i: a negative multiplier needs the upper side tight, a positive one the lower side *)
    (gy t' i < 0 -> rhs == aij * gx t' j) /\ (0 < gy t' i -> lhs == aij * gx t' j) /\
    (* column j: a reduced cost of the sign its bound allows needs that bound tight; the other sign does not occur *)
    if up then (gr t' j < 0 -> oldUp == gx t' j) /\ ~ 0 < gr t' j
    else (0 < gr t' j -> oldLo == gx t' j) /\ ~ gr t' j < 0.
  Proof.
    unfold t'. rewrite rs_decide_opposite.
    assert (M : (if up then newLo else newUp) == gx t0 j)
      by (rewrite Hx; destruct up; apply Qeq_bool_iff; tauto).
    destruct (decided_signs away (Qeq_bool (lhs / aij) (gx t0 j)) (Some (if up then ON_UPPER else ON_LOWER))) as (A & B & X & R).
    - unfold away. destruct up; [destruct (Qltb'_spec 0 (gr t0 j)) | destruct (Qltb'_spec (gr t0 j) 0)]; intros E; try discriminate E; tauto.
    - split; [exact A | split; [exact B|]]. rewrite X. revert R. unfold away.
      destruct up; [destruct (Qltb'_spec 0 (gr t0 j)) | destruct (Qltb'_spec (gr t0 j) 0)]; intros R; rewrite R;
        cbv iota in Hx; split; intros; lra.
  Qed.
End OppositeBound.
