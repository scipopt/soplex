(* Dense vectors over Q as finitely supported sequences (lists padded with zeros): every operation is total and
   the algebraic laws hold without length side conditions.  Equality of numbers is Qeq (==). *)
From Coq Require Import QArith List Lia Lqa Setoid Morphisms.
Import ListNotations.
Local Open Scope Q_scope.

Fixpoint dot (u v : list Q) : Q :=
  match u, v with
  | a :: u', b :: v' => a * b + dot u' v'
  | _, _ => 0
  end.

Fixpoint vadd (u v : list Q) : list Q :=
  match u, v with
  | a :: u', b :: v' => (a + b) :: vadd u' v'
  | [], _ => v
  | _, [] => u
  end.

Definition vscale (c : Q) (u : list Q) : list Q := map (Qmult c) u.

(* i-th entry, zero beyond the end *)
Fixpoint vnth (u : list Q) (i : nat) : Q :=
  match u, i with
  | [], _ => 0
  | a :: _, O => a
  | _ :: u', S k => vnth u' k
  end.

(* matrix = list of rows *)
Definition mat_vec (A : list (list Q)) (x : list Q) : list Q := map (fun a => dot a x) A.

(* y^T A as a vector: sum_i y_i * row_i *)
Fixpoint tmat_vec (A : list (list Q)) (y : list Q) : list Q :=
  match A, y with
  | a :: A', yi :: y' => vadd (vscale yi a) (tmat_vec A' y')
  | _, _ => []
  end.

Lemma dot_nil_r u : dot u [] = 0.
Proof. destruct u; reflexivity. Qed.

Lemma dot_comm u v : dot u v == dot v u.
Proof. revert v; induction u as [|a u IH]; intros [|b v]; simpl; try reflexivity. rewrite IH. ring. Qed.

Lemma dot_vadd_l u v z : dot (vadd u v) z == dot u z + dot v z.
Proof.
  revert v z; induction u as [|a u IH]; intros v z; simpl.
  - ring.
  - destruct v as [|b v]; destruct z as [|c z]; simpl; try ring. rewrite IH. ring.
Qed.

Lemma dot_vscale_l c u z : dot (vscale c u) z == c * dot u z.
Proof.
  revert z; induction u as [|a u IH]; intros [|b z]; simpl; try ring. unfold vscale in IH. rewrite IH. ring.
Qed.

Lemma dot_vadd_r z u v : dot z (vadd u v) == dot z u + dot z v.
Proof. rewrite dot_comm, dot_vadd_l, (dot_comm u z), (dot_comm v z). reflexivity. Qed.

Lemma dot_vscale_r c z u : dot z (vscale c u) == c * dot z u.
Proof. rewrite dot_comm, dot_vscale_l, (dot_comm u z). reflexivity. Qed.

(* the transposition identity behind weak duality:  (y^T A) z = y^T (A z) *)
Lemma dot_tmat_vec A : forall y z, dot (tmat_vec A y) z == dot y (mat_vec A z).
Proof.
  induction A as [|a A IH]; intros [|yi y] z; simpl; try reflexivity.
  rewrite dot_vadd_l, dot_vscale_l, IH. reflexivity.
Qed.

Lemma vnth_nil i : vnth [] i = 0.
Proof. destruct i; reflexivity. Qed.

Lemma vnth_beyond u i : (length u <= i)%nat -> vnth u i = 0.
Proof. revert i; induction u as [|a u IH]; intros [|i] H; simpl in *; try lia; auto. apply IH. lia. Qed.

Lemma vnth_vadd u v i : vnth (vadd u v) i == vnth u i + vnth v i.
Proof.
  revert v i; induction u as [|a u IH]; intros v i; simpl.
  - ring.
  - destruct v as [|b v]; destruct i as [|k]; simpl; try ring. apply IH.
Qed.

Lemma vnth_vscale c u i : vnth (vscale c u) i == c * vnth u i.
Proof. revert i; induction u as [|a u IH]; intros [|k]; simpl; try ring. apply IH. Qed.

Lemma dot_cons a u b v : dot (a :: u) (b :: v) = a * b + dot u v.
Proof. reflexivity. Qed.

Fixpoint vsum (u : list Q) : Q := match u with [] => 0 | a :: r => a + vsum r end.

(* term-wise bound: if every product is bounded below by the corresponding entry of w, so is the dot by the sum of w *)
Lemma dot_ge_termwise : forall (u v w : list Q),
  length w = length u -> length v = length u ->
  (forall i, (i < length u)%nat -> vnth w i <= vnth u i * vnth v i) -> vsum w <= dot u v.
Proof.
  induction u as [|a u IH]; intros [|b v] [|c w] Hw Hv H; simpl in *; try discriminate; try lra.
  assert (c <= a * b) by (apply (H 0%nat); lia).
  assert (vsum w <= dot u v).
  { apply IH; try lia. intros i Hi. apply (H (S i)). lia. }
  lra.
Qed.

Lemma vnth_map_dot A x i : (i < length A)%nat -> vnth (mat_vec A x) i == dot (nth i A []) x.
Proof.
  revert i; induction A as [|a A IH]; intros [|i] H; simpl in *; try lia; try reflexivity. apply IH. lia.
Qed.

Lemma mat_vec_length A x : length (mat_vec A x) = length A.
Proof. apply map_length. Qed.
