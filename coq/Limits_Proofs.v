(* C16 - the stop logic model (LimitsModel.v).  One pass of the pivoting loop is described once: [next] says with which
   counter the loop goes on, [stop_at] why it ended, [run_from_step] ties both to [run_from]; [run_from_ended] finds
   the pass at which a run ended, and the statements about limits, honesty of verdicts and resuming read their answer off
   its [stop_at].  Then the budget arithmetic over several inner solves and one round of the exact solve. *)
From Coq Require Import ZArith QArith List Bool Lia Lqa.
From SV Require Import Vec LP Cert Cert_Proofs LimitsModel.
Import ListNotations.
Local Open Scope Z_scope.

(* a pass that priced a candidate, i.e. that reaches the two checks in front of enter()/leave() *)
Definition priced (k : ekind) : bool :=
  match k with Pivot | Flip | Infeasible | Unbounded => true | _ => false end.
(* the passes in which terminate() gets beyond the basis status *)
Definition asks (k : ekind) : bool := match k with Start | Pivot | Flip => true | _ => false end.

(* one pass: Some n' = the loop goes on with counter n' *)
Definition next (lim : limits) (n : Z) (e : event) : option Z :=
  match ev_kind e with
  | Optimal | Fail => None
  | Switch => Some n
  | Start => match terminate lim None e with Some _ => None | None => Some n end
  | k => if iter_limit_hit lim n || (use_intr lim && ev_intr e) then None
         else match terminate lim (basis_after k) e with Some _ => None | None => Some (count_after k n) end
  end.

(* why a pass ended the run *)
Inductive stop_at (lim : limits) (n : Z) (e : event) (r : list event) : result -> Prop :=
| SA_verdict s : is_verdict s = true -> ev_kind e = verdict_kind s -> stop_at lim n e r {| st := s; iters := n; rest := r |}
| SA_fail : ev_kind e = Fail -> stop_at lim n e r {| st := FAILED; iters := n; rest := r |}
| SA_iter : priced (ev_kind e) = true -> iter_limit_hit lim n = true ->
    stop_at lim n e r {| st := ABORT_ITER; iters := n; rest := e :: r |}
| SA_intr : priced (ev_kind e) = true -> use_intr lim = true -> ev_intr e = true ->
    stop_at lim n e r {| st := ABORT_TIME; iters := n; rest := e :: r |}
| SA_time : asks (ev_kind e) = true -> (priced (ev_kind e) = true -> iter_limit_hit lim n = false) ->
    use_time lim = true -> ev_timeup e = true ->
    stop_at lim n e r {| st := ABORT_TIME; iters := count_after (ev_kind e) n; rest := r |}
| SA_value l v : asks (ev_kind e) = true -> (priced (ev_kind e) = true -> iter_limit_hit lim n = false) ->
    obj_lim lim = Some l -> ev_dual e = Some v -> beyond (maxi lim) l v = true ->
    stop_at lim n e r {| st := ABORT_VALUE; iters := count_after (ev_kind e) n; rest := r |}.

Lemma terminate_none_cases lim e s :
  terminate lim None e = Some s ->
  (s = ABORT_TIME /\ use_time lim = true /\ ev_timeup e = true) \/
  (s = ABORT_VALUE /\ exists l v, obj_lim lim = Some l /\ ev_dual e = Some v /\ beyond (maxi lim) l v = true).
Proof.
  unfold terminate. destruct (use_time lim && ev_timeup e) eqn:T.
  - intros H. injection H as <-. left. apply andb_true_iff in T. tauto.
  - destruct (obj_lim lim) as [l|]; [|discriminate]. destruct (ev_dual e) as [v|]; [|discriminate].
    destruct (beyond (maxi lim) l v) eqn:B; [|discriminate]. intros H. injection H as <-.
    right. split; [reflexivity|]. exists l, v. auto.
Qed.

(* the only place where the shape of run_from is looked at *)
Lemma run_from_step lim n e r :
  match next lim n e with
  | Some n' => run_from lim n (e :: r) = run_from lim n' r /\ n <= n' <= n + 1 /\ (n' <> n -> iter_limit_hit lim n = false)
  | None => stop_at lim n e r (run_from lim n (e :: r))
  end.
Proof.
  assert (T : forall k s, ev_kind e = k -> terminate lim None e = Some s -> asks k = true ->
     (priced k = true -> iter_limit_hit lim n = false) ->
     stop_at lim n e r {| st := s; iters := count_after k n; rest := r |}).
  { intros k s <- H K L. apply terminate_none_cases in H as [(-> & U & V)|(-> & l & v & A & B & C)];
      [now apply SA_time | now apply (SA_value _ _ _ _ l v)]. }
  unfold next. cbn [run_from]. destruct (ev_kind e) eqn:K; cbn [basis_after count_after].
  1: destruct (terminate lim None e) eqn:E; [apply (T Start); auto; discriminate | repeat split; lia].
  3: repeat split; lia.
  3, 6: now constructor.
  all: destruct (iter_limit_hit lim n) eqn:H; cbn [orb]; [apply SA_iter; [now rewrite K | exact H]|].
  all: destruct (use_intr lim && ev_intr e) eqn:I; [apply andb_true_iff in I as [I1 I2]; apply SA_intr; [now rewrite K | exact I1 | exact I2]|].
  1: destruct (terminate lim None e) eqn:E; [apply (T Pivot); auto | repeat split; try lia; auto].
  1: destruct (terminate lim None e) eqn:E; [apply (T Flip); auto | repeat split; try lia; auto].
  all: now constructor.
Qed.

Lemma next_some lim n e r n' : next lim n e = Some n' -> run_from lim n (e :: r) = run_from lim n' r.
Proof. intros N. pose proof (run_from_step lim n e r) as S. rewrite N in S. apply S. Qed.

(* one pass looked at through run_from_step.  Either the run goes on: the goal is rewritten to the run from the new counter
   n', with N : next lim n e = Some n', B1 : n <= n' <= n + 1 and B2 : n' <> n -> iter_limit_hit lim n = false.  Or it ended:
   N : next lim n e = None, the result is abstracted to a variable and S : stop_at lim n e r _ says why. *)
Ltac step lim n e r :=
  let S := fresh "S" in pose proof (run_from_step lim n e r) as S;
  destruct (next lim n e) as [?n'|] eqn:?N;
  [destruct S as (S & ?B1 & ?B2); rewrite S; clear S
  | let res := fresh "res" in set (res := run_from lim n (e :: r)) in *; clearbody res].

Lemma iter_limit_hit_false lim n : iter_limit_hit lim n = false -> 0 <= max_iters lim -> n < max_iters lim.
Proof. unfold iter_limit_hit. intros H Hm. apply andb_false_iff in H as [H|H]; apply Z.leb_gt in H; lia. Qed.
Lemma iter_limit_hit_true lim n : iter_limit_hit lim n = true -> 0 <= max_iters lim <= n.
Proof. unfold iter_limit_hit. intros H. apply andb_true_iff in H as [A B]. apply Z.leb_le in A, B. lia. Qed.
Lemma basis_after_verdict k s : basis_after k = Some s -> is_verdict s = true /\ k = verdict_kind s.
Proof. destruct k; cbn; intros H; try discriminate H; injection H as <-; split; reflexivity. Qed.
Lemma count_after_bounds k n : n <= count_after k n <= n + 1.
Proof. destruct k; cbn; lia. Qed.

Lemma count_after_asks lim k n : asks k = true -> (priced k = true -> iter_limit_hit lim n = false) ->
  n <= count_after k n /\ (0 <= max_iters lim -> n <= max_iters lim -> count_after k n <= max_iters lim).
Proof.
  destruct k; try discriminate; cbn; intros _ H; try lia.
  split; [lia|]. intros Hm _. pose proof (iter_limit_hit_false _ _ (H eq_refl) Hm). lia.
Qed.

Lemma run_from_iters_bounds lim evs : forall n,
  n <= iters (run_from lim n evs) /\
  (0 <= max_iters lim -> n <= max_iters lim -> iters (run_from lim n evs) <= max_iters lim).
Proof.
  induction evs as [|e r IH]; intros n; [cbn; lia|]. step lim n e r.
  - destruct (IH n') as [A B]. split; [lia|]. intros Hm Hn. apply B; [exact Hm|].
    destruct (Z.eq_dec n' n) as [->|D]; [exact Hn|]. pose proof (iter_limit_hit_false _ _ (B2 D) Hm). lia.
  - destruct S; cbn [iters]; try lia; now apply count_after_asks.
Qed.

(* passes that all go on under lim go on, with the same counters, under any limits that let through what lim lets through *)
Lemma run_from_through lim lim' pre post :
  (forall n e n', next lim n e = Some n' -> next lim' n e = Some n') -> forall n,
  st (run_from lim n pre) = RUNNING ->
  run_from lim' n (pre ++ post) = run_from lim' (iters (run_from lim n pre)) post.
Proof.
  intros T. induction pre as [|e r IH]; intros n; [reflexivity|]. rewrite <- app_comm_cons. step lim n e r.
  - rewrite (next_some _ _ _ _ _ (T _ _ _ N)). apply IH.
  - destruct S as [s V| | | | |]; cbn [st]; try discriminate. intros ->. discriminate V.
Qed.

Lemma run_from_app lim pre post n :
  st (run_from lim n pre) = RUNNING ->
  run_from lim n (pre ++ post) = run_from lim (iters (run_from lim n pre)) post.
Proof. exact (run_from_through lim lim pre post (fun _ _ _ N => N) n). Qed.

(* a run that has ended did so in one pass e, reached after passes that all went on *)
Lemma run_from_ended lim evs : forall n,
  st (run_from lim n evs) = RUNNING \/
  exists pre e post, evs = pre ++ e :: post /\ st (run_from lim n pre) = RUNNING /\
    stop_at lim (iters (run_from lim n pre)) e post (run_from lim n evs).
Proof.
  induction evs as [|e r IH]; intros n; [now left|]. step lim n e r.
  - destruct (IH n') as [R | (pre & e0 & post & -> & R & S)]; [now left | right].
    exists (e :: pre), e0, post. rewrite (next_some _ _ _ pre _ N). auto.
  - right. exists [], e, r. auto.
Qed.

Lemma iter_limit_respected_from lim n evs :
  0 <= max_iters lim -> n <= max_iters lim -> iters (run_from lim n evs) <= max_iters lim.
Proof. intros. now apply run_from_iters_bounds. Qed.

Lemma iter_limit_respected lim evs :
  0 <= max_iters lim -> 0 <= iters (run lim evs) <= max_iters lim.
Proof.
  intros H. unfold run. destruct (run_from_iters_bounds lim evs 0) as [A B]. split; [exact A | now apply B].
Qed.

(* ABORT_ITER is reported only when a limit is set and the counter stands exactly at it *)
Lemma abort_iter_exact lim evs :
  st (run lim evs) = ABORT_ITER -> 0 <= max_iters lim /\ iters (run lim evs) = max_iters lim.
Proof.
  unfold run. pose proof (run_from_iters_bounds lim evs 0) as B. revert B.
  destruct (run_from_ended lim evs 0) as [R | (pre & e & post & _ & _ & S)]; [rewrite R; discriminate|].
  destruct S as [s V| |K L| | |]; cbn [st iters]; intros B E; try discriminate E; [subst s; discriminate V|].
  apply iter_limit_hit_true in L. lia.
Qed.

(* honesty: a verdict is returned only if the oracle produced that terminal event, and it is the event at which the run
   ended (everything after it is left untouched) *)
Lemma abort_is_honest lim evs s :
  is_verdict s = true -> st (run lim evs) = s ->
  exists pre e, evs = pre ++ e :: rest (run lim evs) /\ ev_kind e = verdict_kind s.
Proof.
  intros V. unfold run. destruct (run_from_ended lim evs 0) as [R | (pre & e & post & -> & _ & S)]; [rewrite R; intros <-; discriminate V|].
  destruct S as [s' V' K| | | | |]; cbn [st rest]; intros <-; try discriminate V. now exists pre, e.
Qed.

(* without limits nothing but the engine ends the run *)
Lemma terminate_no_limits bs e : terminate no_limits bs e = bs.
Proof. destruct bs; reflexivity. Qed.

Lemma run_from_no_limits_cons n e r :
  run_from no_limits n (e :: r) =
  match ev_kind e with
  | Optimal => {| st := OPTIMAL; iters := n; rest := r |}
  | Fail => {| st := FAILED; iters := n; rest := r |}
  | Infeasible => {| st := INFEASIBLE; iters := n; rest := r |}
  | Unbounded => {| st := UNBOUNDED; iters := n; rest := r |}
  | Pivot => run_from no_limits (n + 1) r
  | _ => run_from no_limits n r
  end.
Proof. cbn [run_from]. destruct (ev_kind e); reflexivity. Qed.

Lemma no_limits_no_abort evs : forall n, is_abort (st (run_from no_limits n evs)) = false.
Proof.
  induction evs as [|e r IH]; intros n; [reflexivity|].
  rewrite run_from_no_limits_cons. destruct (ev_kind e); cbn [st is_abort]; auto.
Qed.

(* the counter is only carried along when there is no iteration limit *)
Lemma run_from_shift evs : forall n,
  st (run_from no_limits n evs) = st (run_from no_limits 0 evs) /\
  iters (run_from no_limits n evs) = n + iters (run_from no_limits 0 evs) /\
  rest (run_from no_limits n evs) = rest (run_from no_limits 0 evs).
Proof.
  induction evs as [|e r IH]; intros n; [cbn; repeat split; lia|].
  rewrite !run_from_no_limits_cons.
  destruct (ev_kind e); cbn [st iters rest]; try (repeat split; lia); try apply IH.
  destruct (IH (n + 1)) as (A & B & C). destruct (IH (0 + 1)) as (A' & B' & C').
  repeat split; [congruence | lia | congruence].
Qed.

(* every pass that goes on under [lim], and every pass that gets as far as asking terminate(), goes on without limits *)
Lemma next_no_limits_of lim n e n' : next lim n e = Some n' -> next no_limits n e = Some n'.
Proof.
  unfold next. destruct (ev_kind e); cbn [basis_after]; try discriminate; auto.
  1: destruct (terminate lim None e); [discriminate | auto].
  all: destruct (iter_limit_hit lim n || use_intr lim && ev_intr e); try discriminate.
  all: try (destruct (terminate lim None e); [discriminate | now auto]).
  all: cbn [terminate]; discriminate.
Qed.
Lemma next_no_limits_asks n e : asks (ev_kind e) = true -> next no_limits n e = Some (count_after (ev_kind e) n).
Proof. unfold next. destruct (ev_kind e); try discriminate; reflexivity. Qed.

(* resuming: a stopped run leaves in [rest] exactly the passes that were not executed; continuing them without limits,
   with the counter carried on, is the uninterrupted run *)
Lemma resume_from lim evs n :
  is_abort (st (run_from lim n evs)) = true ->
  run_from no_limits (iters (run_from lim n evs)) (rest (run_from lim n evs)) = run_from no_limits n evs.
Proof.
  destruct (run_from_ended lim evs n) as [R | (pre & e & post & -> & R & S)]; [rewrite R; discriminate|].
  rewrite (run_from_through lim no_limits pre (e :: post) (next_no_limits_of lim) n R).
  destruct S as [s V| | | |K L U T|l v K L A B C]; cbn [st iters rest is_abort]; intros E; try discriminate E; try reflexivity.
  - destruct s; discriminate.
  - symmetry. apply next_some, next_no_limits_asks, K.
  - symmetry. apply next_some, next_no_limits_asks, K.
Qed.

(* the statement in terms of two calls of solve(): the second one starts its counter at 0 again *)
Lemma resume_equals_uninterrupted lim evs :
  is_abort (st (run lim evs)) = true ->
  st (run no_limits (rest (run lim evs))) = st (run no_limits evs) /\
  iters (run lim evs) + iters (run no_limits (rest (run lim evs))) = iters (run no_limits evs) /\
  rest (run no_limits (rest (run lim evs))) = rest (run no_limits evs).
Proof.
  intros A. unfold run in *. pose proof (resume_from lim evs 0 A) as R.
  destruct (run_from_shift (rest (run_from lim 0 evs)) (iters (run_from lim 0 evs))) as (S1 & S2 & S3).
  rewrite R in S1, S2, S3. repeat split; [now rewrite S1 | lia | now rewrite S3].
Qed.

(* Objective limit *)

Lemma abort_value_from lim evs n :
  st (run_from lim n evs) = ABORT_VALUE ->
  exists e l v, In e evs /\ obj_lim lim = Some l /\ ev_dual e = Some v /\ beyond (maxi lim) l v = true.
Proof.
  destruct (run_from_ended lim evs n) as [R | (pre & e & post & -> & _ & S)]; [rewrite R; discriminate|].
  destruct S as [s V| | | | |l v K L A B C]; cbn [st]; intros E; try discriminate E; [subst s; discriminate V|].
  exists e, l, v. split; [apply in_elt | auto].
Qed.

Lemma beyond_spec mx l v : beyond mx l v = true -> if mx then (v <= l)%Q else (l <= v)%Q.
Proof. unfold beyond. destruct mx; intros H; now apply Qle_bool_iff in H. Qed.

(* ABORT_VALUE with the meaning of [ev_dual]: the value the stop logic compared is the dual objective of some multipliers
   of the user's LP.  Weak duality then puts every feasible objective value - hence the optimum - beyond the limit. *)
Lemma objlimit_sound (p : lp) lim evs l :
  st (run lim evs) = ABORT_VALUE -> maxi lim = maximize p -> obj_lim lim = Some l ->
  (forall e v, In e evs -> ev_dual e = Some v -> exists y b, dual_bound p y = Some b /\ (b == v)%Q) ->
  forall x, feasible p x -> no_worse p l (objective p x).
Proof.
  intros H Hm Hl Hd x Hx. unfold run in H.
  destruct (abort_value_from lim evs 0 H) as (e & l' & v & I & L & D & B).
  rewrite Hl in L. injection L as <-.
  destruct (Hd e v I D) as (y & b & Db & Eb).
  pose proof (weak_duality p y x b Db Hx) as W.
  apply beyond_spec in B. rewrite Hm in B. unfold no_worse in *. destruct (maximize p); lra.
Qed.

Lemma objlimit_optimum_beyond (p : lp) lim evs l xopt :
  st (run lim evs) = ABORT_VALUE -> maxi lim = maximize p -> obj_lim lim = Some l ->
  (forall e v, In e evs -> ev_dual e = Some v -> exists y b, dual_bound p y = Some b /\ (b == v)%Q) ->
  optimal p xopt -> no_worse p l (objective p xopt).
Proof. intros H Hm Hl Hd [Hf _]. exact (objlimit_sound p lim evs l H Hm Hl Hd xopt Hf). Qed.

Lemma no_objlimit_no_abort_value lim evs : obj_lim lim = None -> st (run lim evs) <> ABORT_VALUE.
Proof.
  intros H A. destruct (abort_value_from lim evs 0 A) as (e & l & v & _ & L & _). rewrite H in L. discriminate L.
Qed.

(* Interrupt and time limit *)

Lemma interrupt_gives_abort_time lim pre e post :
  use_intr lim = true -> ev_intr e = true -> priced (ev_kind e) = true ->
  st (run lim pre) = RUNNING -> iter_limit_hit lim (iters (run lim pre)) = false ->
  run lim (pre ++ e :: post) = {| st := ABORT_TIME; iters := iters (run lim pre); rest := e :: post |}.
Proof.
  intros U I P R H. unfold run in *. rewrite (run_from_app lim pre (e :: post) 0 R). cbn [run_from].
  rewrite H, U, I. destruct (ev_kind e); try discriminate P; reflexivity.
Qed.

Lemma abort_time_has_cause lim evs : forall n,
  st (run_from lim n evs) = ABORT_TIME ->
  (use_intr lim = true /\ exists e, In e evs /\ ev_intr e = true /\ priced (ev_kind e) = true) \/
  (use_time lim = true /\ exists e, In e evs /\ ev_timeup e = true).
Proof.
  intros n. destruct (run_from_ended lim evs n) as [R | (pre & e & post & -> & _ & S)]; [rewrite R; discriminate|].
  pose proof (in_elt e pre post) as I.
  destruct S as [s V| | |K U T|K L U T|]; cbn [st]; intros E; try discriminate E; [subst s; discriminate V | left | right]; eauto.
Qed.

(* TIMELIMIT <= time already used: the budget is 0 and any clock reading reaches it *)
Lemma time_budget_exhausted timelimit elapsed clock :
  (timelimit <= elapsed)%Q -> (0 <= clock)%Q ->
  time_limit_reached (Some (time_budget timelimit elapsed)) false clock = true.
Proof.
  intros H C. unfold time_limit_reached, time_budget, set_termination_time. cbn [negb andb].
  destruct (Qle_bool 0 (timelimit - elapsed)) eqn:E; apply Qle_bool_iff.
  - apply Qle_bool_iff in E. lra.
  - exact C.
Qed.

Lemma time_up_stops_at_start lim e evs :
  ev_kind e = Start -> use_time lim = true -> ev_timeup e = true ->
  run lim (e :: evs) = {| st := ABORT_TIME; iters := 0; rest := evs |}.
Proof. intros K U T. unfold run. cbn [run_from]. rewrite K. unfold terminate. rewrite U, T. reflexivity. Qed.

(* Several inner solves in one optimize() call *)

Lemma iter_budget_nonneg iterlimit used : 0 <= used <= iterlimit -> iter_budget iterlimit used = iterlimit - used.
Proof. intros H. unfold iter_budget, set_termination_iter. destruct (iterlimit - used <? 0) eqn:E; [apply Z.ltb_lt in E; lia | reflexivity]. Qed.

Lemma outer_from_iters lim iterlimit solves : forall used first last,
  0 <= used <= iterlimit ->
  used <= oiters (outer_from lim iterlimit used first last solves) <= iterlimit.
Proof.
  induction solves as [|s more IH]; intros used first last H.
  - cbn. lia.
  - cbn [outer_from].
    destruct (in_simp s); cbn [oiters]; try lia; try (now apply IH).
    set (r := run (inner_limits lim (iter_budget iterlimit used) first (in_objlim s)) (in_events s)).
    assert (0 <= iters r <= iterlimit - used) as B.
    { unfold r. rewrite iter_budget_nonneg by exact H.
      apply (iter_limit_respected (inner_limits lim (iterlimit - used) first (in_objlim s)) (in_events s)). cbn. lia. }
    destruct (may_resolve (st r)); cbn [oiters]; [|lia].
    specialize (IH (used + iters r) false (st r) ltac:(lia)). lia.
Qed.

Lemma outer_iter_limit_respected lim iterlimit solves :
  0 <= iterlimit -> 0 <= oiters (outer lim iterlimit solves) <= iterlimit.
Proof. intros H. unfold outer. apply (outer_from_iters lim iterlimit solves 0 true RUNNING). lia. Qed.

(* the reported verdict is the simplifier's or a terminal event of one of the inner solves *)
Definition verdict_source (v : status) (s : inner) : Prop :=
  (in_simp s <> S_OKAY /\ evaluate (in_simp s) RUNNING = v) \/
  (in_simp s = S_OKAY /\ exists a e b, in_events s = a ++ e :: b /\ ev_kind e = verdict_kind v).

Lemma outer_from_verdict lim iterlimit v solves : forall used first last,
  is_verdict v = true -> ost (outer_from lim iterlimit used first last solves) = v ->
  last = v \/ exists s, In s solves /\ verdict_source v s.
Proof.
  intros used first last V. revert used first last.
  induction solves as [|s more IH]; intros used first last.
  - cbn. intros H. now left.
  - cbn [outer_from].
    (* a verdict of the simplifier is its own source *)
    assert (Simp : in_simp s <> S_OKAY -> evaluate (in_simp s) RUNNING = v ->
                   last = v \/ exists s0, In s0 (s :: more) /\ verdict_source v s0).
    { intros N E. right. exists s. split; [now left | left; now split]. }
    destruct (in_simp s) eqn:S; cbn [ost]; try (intros H; apply Simp; [discriminate | exact H]).
    + set (r := run (inner_limits lim (iter_budget iterlimit used) first (in_objlim s)) (in_events s)).
      assert (st r = v -> exists s0, In s0 (s :: more) /\ verdict_source v s0) as Here.
      { intros E. exists s. split; [now left|]. right. split; [exact S|].
        destruct (abort_is_honest _ _ _ V E) as (a & e & E1 & E2). eauto. }
      destruct (may_resolve (st r)); cbn [ost].
      * intros H. destruct (IH _ _ _ H) as [L|(s0 & I & R)]; right; [now apply Here | exists s0; split; [now right | exact R]].
      * intros H. right. now apply Here.
    + intros H. destruct (IH _ _ _ H) as [L|(s0 & I & R)]; [now apply Simp|].
      right. exists s0. split; [now right | exact R].
Qed.

Lemma outer_verdict_honest lim iterlimit solves v :
  is_verdict v = true -> ost (outer lim iterlimit solves) = v ->
  exists s, In s solves /\ verdict_source v s.
Proof.
  intros V H. unfold outer in H. destruct (outer_from_verdict lim iterlimit v solves 0 true RUNNING V H) as [L|R]; [|exact R].
  rewrite <- L in V. discriminate V.
Qed.

(* an inner solve stopped by the iteration limit or the time limit ends the optimize() call with that status *)
Lemma outer_abort_kept lim iterlimit used first last s more :
  in_simp s = S_OKAY ->
  may_resolve (st (run (inner_limits lim (iter_budget iterlimit used) first (in_objlim s)) (in_events s))) = false ->
  ost (outer_from lim iterlimit used first last (s :: more)) =
  st (run (inner_limits lim (iter_budget iterlimit used) first (in_objlim s)) (in_events s)).
Proof. intros S M. cbn [outer_from]. rewrite S, M. reflexivity. Qed.

(* Exact solve: a round of the verdict automaton, and the refinement limits *)

Lemma rat_round_honest o u f u2 t :
  (rat_round o u f u2 t = R_OPTIMAL ->
     o_pfeas o = true /\ o_dfeas o = true /\ o_error o = false /\ o_stime o = false /\ o_siter o = false) /\
  (rat_round o u f u2 t = R_INFEASIBLE ->
     f_infeasible f = true /\ f_error f = false /\ f_stime f = false /\ f_siter f = false /\
     o_error o = false /\ o_stime o = false /\ o_siter o = false) /\
  (rat_round o u f u2 t = R_UNBOUNDED ->
     u_hasray u = true /\ u_error u = false /\ u_stime u = false /\ u_siter u = false /\
     f_infeasible f = false /\ f_error f = false /\ f_stime f = false /\ f_siter f = false /\
     o_error o = false /\ o_stime o = false /\ o_siter o = false).
Proof.
  (* in the order of the code: the three flags of each procedure first, then its answer *)
  unfold rat_round.
  destruct (o_error o), (o_stime o), (o_siter o); try (repeat split; discriminate).
  destruct (o_unbounded o).
  - destruct (u_error u), (u_stime u), (u_siter u); try (repeat split; discriminate).
    destruct (f_error f), (f_stime f), (f_siter f); try (repeat split; discriminate).
    destruct (f_infeasible f), (u_hasray u); repeat split; intros; try discriminate; reflexivity.
  - destruct (o_infeasible o).
    + destruct (f_error f), (f_stime f), (f_siter f); try (repeat split; discriminate).
      destruct (f_infeasible f), t, (u_error u2); repeat split; intros; try discriminate; reflexivity.
    + destruct (o_pfeas o), (o_dfeas o); repeat split; intros; try discriminate; reflexivity.
Qed.

Lemma rat_stop_flag_wins o u f u2 t : o_error o = false ->
  (o_stime o = true -> rat_round o u f u2 t = R_ABORT_TIME) /\
  (o_stime o = false -> o_siter o = true -> rat_round o u f u2 t = R_ABORT_ITER).
Proof. intros E. unfold rat_round. rewrite E. split; [intros -> | intros -> ->]; reflexivity. Qed.

Lemma reflimit_stops l s :
  (0 <= rl_ref l <= r_refs s \/ 0 <= rl_stallref l <= r_stallrefs s \/ 0 <= rl_iter l <= r_iters s) ->
  is_solve_stopped l s = true.
Proof.
  intros H. unfold is_solve_stopped, stopped_iter. apply orb_true_iff. right.
  destruct H as [H|[H|H]]; destruct H as [A B]; apply Z.leb_le in A, B; rewrite A, B; cbn; rewrite ?orb_true_r; reflexivity.
Qed.

Lemma no_rlimits_never_stopped s :
  is_solve_stopped {| rl_time := None; rl_iter := -1; rl_ref := -1; rl_stallref := -1 |} s = false.
Proof. reflexivity. Qed.

(* the verdict and the optimal value are properties of the LP: two runs that both end with a sound verdict agree,
   whatever pivots they made (used for "continuing reaches the same status and optimal value") *)
Lemma optimal_value_unique (p : lp) x x' : optimal p x -> optimal p x' -> (objective p x == objective p x')%Q.
Proof.
  intros [F O] [F' O']. specialize (O x' F'). specialize (O' x F).
  unfold no_worse in *. destruct (maximize p); lra.
Qed.
