(* C10 - The LU factorization and its updates solve with the current basis matrix.
   Each theorem is closed by a lemma of LU_Proofs.v or a short derivation from them; Examples show that hypotheses
   are satisfiable.

   Certifying-oracle reading (DESIGN.md section 2, 5/C10): the Markowitz elimination, the Forrest-Tomlin and
   product-form updates and the hyper-sparse solves are witness producers and are NOT modelled.  The theorems
   below say what acceptance by the checkers of LUModel.v means, for matrices of every dimension over Q:
   every answer of the implementation is passed through the extracted checkers on every run (checks/C10.py). *)
From Coq Require Import List QArith Qabs Bool Arith ZArith.
From SV Require Import LUModel LU_Proofs.
Import ListNotations.
Local Open Scope Q_scope.

(* A regular certificate (two-sided inverse, checked coefficient-wise) makes the right and the left system uniquely
   solvable: any two accepted solutions agree, and Binv b / b^T Binv are accepted solutions for every rhs. *)
Theorem C10_regular_cert_unique_solution :
  forall n B Binv, regular_cert n B Binv = true ->
  (forall x y b, check_solve_right n B x b = true -> check_solve_right n B y b = true -> Forall2 Qeq x y) /\
  (forall b, length b = n -> check_solve_right n B (mat_vec n Binv b) b = true) /\
  (forall x y b, check_solve_left n B x b = true -> check_solve_left n B y b = true -> Forall2 Qeq x y) /\
  (forall b, length b = n -> check_solve_left n B (vec_mat b Binv) b = true).
Proof. exact regular_cert_unique_solution_lemma. Qed.
Print Assumptions C10_regular_cert_unique_solution.

(* A singular certificate (non-zero kernel vector) excludes every regular certificate: the verdicts SINGULAR
   (validated by a kernel vector) and "solves for every right-hand side" cannot both be right. *)
Theorem C10_singular_cert_no_inverse :
  forall n B v, singular_cert n B v = true -> forall Binv, regular_cert n B Binv = false.
Proof. exact singular_cert_no_inverse_lemma. Qed.
Print Assumptions C10_singular_cert_no_inverse.

(* ... and with a kernel vector no accepted solution is the only one. *)
Theorem C10_singular_cert_solutions_not_unique :
  forall n B v, singular_cert n B v = true ->
  forall x b, check_solve_right n B x b = true ->
    check_solve_right n B (vadd x v) b = true /\ ~ Forall2 Qeq (vadd x v) x.
Proof. exact singular_cert_not_unique_lemma. Qed.
Print Assumptions C10_singular_cert_solutions_not_unique.

(* change(idx, column): column k becomes v, all other columns are unchanged, the shape is preserved. *)
Theorem C10_replace_col_spec :
  forall n B k v, wf_mat n B = true -> wf_vec n v = true -> (k < n)%nat ->
  wf_mat n (replace_col B k v) = true /\
  nth_error (replace_col B k v) k = Some v /\
  (forall j, j <> k -> nth_error (replace_col B k v) j = nth_error B j).
Proof. exact replace_col_spec_lemma. Qed.
Print Assumptions C10_replace_col_spec.

(* any history of loads and column replacements keeps a square matrix of the same dimension *)
Theorem C10_history_keeps_shape :
  forall n ops B, wf_mat n B = true -> forallb (wf_op n) ops = true -> wf_mat n (lu_run B ops) = true.
Proof. exact lu_run_wf_lemma. Qed.
Print Assumptions C10_history_keeps_shape.

(* algebraic core of the product-form (eta) update: if w solves B w = v then the matrix with column k replaced
   by v is B times the eta matrix built from w. *)
Theorem C10_eta_update_correct :
  forall n B k v w x, wf_mat n B = true -> check_solve_right n B w v = true -> length x = n -> (k < n)%nat ->
  Forall2 Qeq (mat_vec n (replace_col B k v) x) (mat_vec n B (eta_apply k w x)).
Proof. intros n B k v w x _. apply eta_update_correct_lemma. Qed.
Print Assumptions C10_eta_update_correct.

(* The 2- and 3-right-hand-side variants are specified as exactly the tuple of the single specifications. *)
Theorem C10_multi_rhs_spec :
  forall n B x y z b d e,
  (solve2_right_spec n B x y b d = true <-> check_solve_right n B x b = true /\ check_solve_right n B y d = true) /\
  (solve3_right_spec n B x y z b d e = true <->
     check_solve_right n B x b = true /\ check_solve_right n B y d = true /\ check_solve_right n B z e = true) /\
  (solve2_left_spec n B x y b d = true <-> check_solve_left n B x b = true /\ check_solve_left n B y d = true) /\
  (solve3_left_spec n B x y z b d e = true <->
     check_solve_left n B x b = true /\ check_solve_left n B y d = true /\ check_solve_left n B z e = true).
Proof. exact multi_rhs_spec_lemma. Qed.
Print Assumptions C10_multi_rhs_spec.

(* On a certified-regular matrix exact multi-rhs answers coincide with the exact single-solve answers. *)
Theorem C10_multi_rhs_equals_single_right :
  forall n B Binv x y z b d e x1 y1 z1, regular_cert n B Binv = true ->
  solve3_right_spec n B x y z b d e = true ->
  check_solve_right n B x1 b = true -> check_solve_right n B y1 d = true -> check_solve_right n B z1 e = true ->
  Forall2 Qeq x x1 /\ Forall2 Qeq y y1 /\ Forall2 Qeq z z1.
Proof. exact multi_rhs_equals_single_lemma. Qed.
Print Assumptions C10_multi_rhs_equals_single_right.

Theorem C10_multi_rhs_equals_single_left :
  forall n B Binv x y z b d e x1 y1 z1, regular_cert n B Binv = true ->
  solve3_left_spec n B x y z b d e = true ->
  check_solve_left n B x1 b = true -> check_solve_left n B y1 d = true -> check_solve_left n B z1 e = true ->
  Forall2 Qeq x x1 /\ Forall2 Qeq y y1 /\ Forall2 Qeq z z1.
Proof. exact multi_lhs_equals_single_lemma. Qed.
Print Assumptions C10_multi_rhs_equals_single_left.

(* The boolean checkers say exactly that the equations hold coefficient by coefficient. *)
Theorem C10_check_solve_right_sound :
  forall n B x b, check_solve_right n B x b = true <->
  (wf_mat n B = true /\ length x = n /\ length b = n /\
   forall i, (i < n)%nat -> nth i (mat_vec n B x) 0 == nth i b 0).
Proof. exact check_solve_right_sound_lemma. Qed.
Print Assumptions C10_check_solve_right_sound.

Theorem C10_check_solve_left_sound :
  forall n B x b, check_solve_left n B x b = true <->
  (wf_mat n B = true /\ length x = n /\ length b = n /\
   forall j, (j < n)%nat -> dot x (nth j B []) == nth j b 0).
Proof. exact check_solve_left_sound_lemma. Qed.
Print Assumptions C10_check_solve_left_sound.

(* Tolerance version: acceptance bounds every residual component by eps (|B|_inf |x|_inf + |b|_inf)
   (|B|_1 on the transposed side). *)
Theorem C10_residual_bound :
  forall n B x b eps, check_residual_right n B x b eps = true ->
  forall i, (i < n)%nat -> Qabs (nth i (mat_vec n B x) 0 - nth i b 0) <= eps * (norm_inf_mat n B * norm_inf x + norm_inf b).
Proof. exact residual_bound_right_lemma. Qed.
Print Assumptions C10_residual_bound.

Theorem C10_residual_bound_left :
  forall n B x b eps, check_residual_left n B x b eps = true ->
  forall j, (j < n)%nat -> Qabs (dot x (nth j B []) - nth j b 0) <= eps * (norm_one_mat B * norm_inf x + norm_inf b).
Proof. exact residual_bound_left_lemma. Qed.
Print Assumptions C10_residual_bound_left.

(* the tolerance check is not vacuous: exact solutions pass it for every eps >= 0 *)
Theorem C10_exact_solution_passes_residual :
  forall n B x b eps, 0 <= eps -> length b = n ->
  check_solve_right n B x b = true -> check_residual_right n B x b eps = true.
Proof. intros n B x b eps He _. apply exact_passes_residual_lemma, He. Qed.
Print Assumptions C10_exact_solution_passes_residual.

(* forward error: an approximate solution differs from the exact one, Binv b, by Binv applied to its residual *)
Theorem C10_forward_error :
  forall n B Binv x b, regular_cert n B Binv = true -> length x = n -> length b = n ->
  Forall2 Qeq x (vadd (mat_vec n Binv b) (mat_vec n Binv (residual_right n B x b))).
Proof. exact forward_error_lemma. Qed.
Print Assumptions C10_forward_error.

(* the certificate in the form the check uses it (inverse = integer matrix N over a common denominator d) *)
Theorem C10_regular_cert_scaled_sound :
  forall n B N d, regular_cert_scaled n B N d = true -> regular_cert n B (mscale (/ d) N) = true.
Proof. exact regular_cert_scaled_sound_lemma. Qed.
Print Assumptions C10_regular_cert_scaled_sound.

(* Homogeneity: the check clears denominators by scaling the matrix by s > 0 and the solution by t > 0 (and the
   right-hand side by s t); the verdicts of the checkers do not change. *)
Theorem C10_residual_check_scale_invariant :
  forall n B x b eps s t, 0 < s -> 0 < t ->
  check_residual_right n (mscale s B) (vscale t x) (vscale (s * t) b) eps = check_residual_right n B x b eps /\
  check_residual_left n (mscale s B) (vscale t x) (vscale (s * t) b) eps = check_residual_left n B x b eps.
Proof. intros n B x b eps s t Hs Ht. apply residual_check_scale_invariant_lemma; apply Qpos_nz; assumption. Qed.
Print Assumptions C10_residual_check_scale_invariant.

Theorem C10_close_check_scale_invariant :
  forall x y eps t, 0 < t -> check_close (vscale t x) (vscale t y) eps = check_close x y eps.
Proof. intros x y eps t Ht. apply check_close_scale_lemma, Qpos_nz, Ht. Qed.
Print Assumptions C10_close_check_scale_invariant.

(* The hypotheses are satisfiable by non-trivial instances *)
Definition exB : mat := [[2; 1; 0]; [1; 1; 0]; [0; 3; 1#2]].              (* columns *)
Definition exBinv : mat := [[1; -1; 0]; [-1; 2; 0]; [6; -12; 2]].
Example ex_regular_scaled : regular_cert_scaled 3 exB (mscale 5 exBinv) 5 = true.
Proof. vm_compute. reflexivity. Qed.
Example ex_regular : regular_cert 3 exB exBinv = true.
Proof. vm_compute. reflexivity. Qed.
Example ex_solve : check_solve_right 3 exB [1; 2; 4] [4; 15; 2] = true /\
                   check_solve_left 3 exB [1; 2; 4] [4; 3; 8] = true.
Proof. vm_compute. split; reflexivity. Qed.
Example ex_singular : singular_cert 3 [[1; 2; 3]; [2; 4; 6]; [0; 1; 0]] [2; -1; 0] = true.
Proof. vm_compute. reflexivity. Qed.
Example ex_replace : replace_col exB 1 [5; 6; 7] = [[2; 1; 0]; [5; 6; 7]; [0; 3; 1#2]].
Proof. reflexivity. Qed.
Example ex_eta : check_solve_right 3 exB [1; 1; 2] [3; 8; 1] = true /\
                 veqb (mat_vec 3 (replace_col exB 1 [3; 8; 1]) [1; 2; 3]) (mat_vec 3 exB (eta_apply 1 [1; 1; 2] [1; 2; 3])) = true.
Proof. vm_compute. split; reflexivity. Qed.
Example ex_residual : check_residual_right 3 exB [1; 2; 4000001#1000000] [4; 15; 2] (1#100000) = true /\
                      check_residual_right 3 exB [1; 2; 5] [4; 15; 2] (1#100000) = false.
Proof. vm_compute. split; reflexivity. Qed.
Example ex_history : lu_run exB [OpChange 0 [1; 0; 0]; OpLoad exBinv; OpChange 2 [0; 0; 1]] = [[1; -1; 0]; [-1; 2; 0]; [0; 0; 1]].
Proof. reflexivity. Qed.
Example ex_scale : check_residual_right 3 (mscale 8 exB) (vscale 4 [1; 2; 4000001#1000000]) (vscale 32 [4; 15; 2]) (1#100000) = true /\
                   check_residual_right 3 (mscale 8 exB) (vscale 4 [1; 2; 5]) (vscale 32 [4; 15; 2]) (1#100000) = false.
Proof. vm_compute. split; reflexivity. Qed.

(* The update protocol (usetup): load / ...4update / change *)
(* Whatever the history of loads, prepared updates, solves and column replacements, a change that relies on the prepared vector
   uses the vector that was prepared for the CURRENT matrix (every operation that changes the matrix drops the prepared vector). *)
Theorem C10_prepared_update_is_for_current_matrix :
  forall ops B0 o B v,
    change_uses (p_run {| p_mat := B0; p_prep := None |} ops) o = Some (B, v) ->
    B = p_mat (p_run {| p_mat := B0; p_prep := None |} ops).
Proof. exact change_uses_current_lemma. Qed.
Print Assumptions C10_prepared_update_is_for_current_matrix.

(* the flag the implementation keeps (compared with SLUFactor::usetup after every operation of every history) *)
Theorem C10_usetup_flag :
  forall s o, usetup (p_step s o) = match o with PPrep _ => true | PSolve => usetup s | _ => false end.
Proof. exact usetup_after_lemma. Qed.
Print Assumptions C10_usetup_flag.

(* the protocol machine and the specification machine agree on the matrix *)
Theorem C10_protocol_matrix :
  forall ops s, p_mat (p_run s ops) = lu_run (p_mat s) (flat_map p_erase ops).
Proof. exact p_run_matrix_lemma. Qed.
Print Assumptions C10_protocol_matrix.

(* sharpness: a load() that kept the prepared vector would hand a later change a vector prepared for another matrix *)
Theorem C10_stale_prepared_vector_refuted :
  exists ops o B v, let s := fold_left p_step_stale ops {| p_mat := [[1; 0]; [0; 1]]; p_prep := None |} in
    change_uses s o = Some (B, v) /\ B <> p_mat s.
Proof. exact stale_load_refuted_lemma. Qed.
Print Assumptions C10_stale_prepared_vector_refuted.
