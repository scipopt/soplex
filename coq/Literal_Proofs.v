(* C12 - proofs about LiteralModel.v: positional semantics of the grammar, the symbolic form of the denotation,
   print/parse round trip of rationals, uniqueness of the correctly rounded double (the executable rounding check is
   in Rounding_Proofs.v), and the refutation of "ratFromString is exact" on the model of the code. *)
From Coq Require Import ZArith QArith Qabs Qpower Bool List Ascii Lia Lqa Decimal DecimalPos Setoid.
From SV Require Import Dbl LiteralModel.
Import ListNotations.
Local Open Scope Z_scope.

Lemma digit_cases (P : Z -> Prop) :
  P 0 -> P 1 -> P 2 -> P 3 -> P 4 -> P 5 -> P 6 -> P 7 -> P 8 -> P 9 -> forall d, 0 <= d <= 9 -> P d.
Proof.
  intros. assert (d = 0 \/ d = 1 \/ d = 2 \/ d = 3 \/ d = 4 \/ d = 5 \/ d = 6 \/ d = 7 \/ d = 8 \/ d = 9) as C by lia.
  repeat (destruct C as [-> | C]; [assumption|]). subst. assumption.
Qed.

Lemma digit_char d : 0 <= d <= 9 -> digit_of (char_of_digit d) = Some d.
Proof. revert d. apply digit_cases; reflexivity. Qed.

(* the only sweep over all characters *)
Lemma digit_of_inv c d : digit_of c = Some d -> 0 <= d <= 9 /\ c = char_of_digit d.
Proof.
  destruct c as [[] [] [] [] [] [] [] []]; intros H; try discriminate H; injection H as <-; split; (lia || reflexivity).
Qed.

Lemma digit_of_range c d : digit_of c = Some d -> 0 <= d <= 9.
Proof. apply digit_of_inv. Qed.

Lemma digit_not_special c d :
  digit_of c = Some d ->
  is_minus c = false /\ is_plus c = false /\ is_dot c = false /\ is_e c = false /\ is_slash c = false.
Proof.
  intros H. apply digit_of_inv in H as [R ->]. revert d R. apply digit_cases; repeat split; reflexivity.
Qed.

Lemma fold_digits ds a :
  fold_left (fun a d => 10 * a + d) ds a = a * 10 ^ Z.of_nat (length ds) + int_part ds.
Proof.
  revert a. induction ds as [|d ds IH]; intros a; cbn [fold_left int_part length].
  - cbn. lia.
  - rewrite IH. rewrite Nat2Z.inj_succ, Z.pow_succ_r by lia. lia.
Qed.

Lemma digits_val_int_part ds : digits_val ds = int_part ds.
Proof. unfold digits_val. rewrite fold_digits. lia. Qed.

Lemma digits_val_app a b : digits_val (a ++ b) = digits_val a * 10 ^ Z.of_nat (length b) + digits_val b.
Proof.
  unfold digits_val. rewrite fold_left_app, fold_digits, (fold_digits b 0). lia.
Qed.

Lemma int_part_nonneg ds : all_digits ds -> 0 <= int_part ds.
Proof.
  induction 1 as [|d ds Hd _ IH]; cbn; [lia|].
  assert (0 <= 10 ^ Z.of_nat (length ds)) by (apply Z.pow_nonneg; lia). nia.
Qed.

Local Open Scope Q_scope.

Lemma ten_nz : ~ inject_Z 10 == 0.
Proof. intros H. discriminate H. Qed.

Lemma pow10_0 : pow10 0 == 1.
Proof. reflexivity. Qed.

Lemma pow10_add a b : pow10 (a + b) == pow10 a * pow10 b.
Proof. unfold pow10. apply Qpower_plus. exact ten_nz. Qed.

Lemma pow10_nonneg_Z n : (0 <= n)%Z -> pow10 n == inject_Z (10 ^ n).
Proof. intros H. unfold pow10. symmetry. now apply Zpower_Qpower. Qed.

Lemma pow10_pos e : 0 < pow10 e.
Proof. unfold pow10. apply Qpower_0_lt. reflexivity. Qed.

Lemma pow10_neg_succ n : pow10 (- Z.of_nat (S n)) == pow10 (- Z.of_nat n) / inject_Z 10.
Proof.
  replace (- Z.of_nat (S n))%Z with (- Z.of_nat n + -1)%Z by lia.
  rewrite pow10_add. unfold Qdiv. apply Qmult_comp; [reflexivity|]. reflexivity.
Qed.

Lemma pow10_shift n a b : (a * pow10 (Z.of_nat n) + b) * pow10 (- Z.of_nat n) == a + b * pow10 (- Z.of_nat n).
Proof.
  setoid_replace ((a * pow10 (Z.of_nat n) + b) * pow10 (- Z.of_nat n))
    with (a * (pow10 (Z.of_nat n) * pow10 (- Z.of_nat n)) + b * pow10 (- Z.of_nat n)) by ring.
  rewrite <- pow10_add, Z.add_opp_diag_r, pow10_0. ring.
Qed.

Lemma frac_part_digits fp :
  inject_Z (digits_val fp) * pow10 (- Z.of_nat (length fp)) == frac_part fp.
Proof.
  induction fp as [|d fp IH]; [reflexivity|].
  change (d :: fp) with ([d] ++ fp) at 1. rewrite digits_val_app. change (digits_val [d]) with (0 + d)%Z.
  cbn [length frac_part Z.add]. rewrite pow10_neg_succ, inject_Z_plus, inject_Z_mult, <- pow10_nonneg_Z by lia.
  unfold Qdiv. rewrite Qmult_assoc, pow10_shift, IH. reflexivity.
Qed.

Lemma mant_val_positional ip fp : mant_val ip fp == inject_Z (int_part ip) + frac_part fp.
Proof.
  unfold mant_val. rewrite digits_val_app, inject_Z_plus, inject_Z_mult, <- pow10_nonneg_Z by lia.
  rewrite pow10_shift, frac_part_digits, digits_val_int_part. reflexivity.
Qed.

Local Open Scope Z_scope.

(* the string is empty or begins with a character on which [p] is false *)
Definition head_not (p : ascii -> bool) (s : list ascii) : Prop :=
  match s with [] => True | c :: _ => p c = false end.

Lemma take_digits_render ds rest :
  all_digits ds -> head_not is_digit rest -> take_digits (render ds ++ rest) = (ds, rest).
Proof.
  intros H Hr. induction H as [|d ds Hd _ IH]; cbn.
  - destruct rest as [|c r]; cbn; auto. unfold head_not, is_digit in Hr. now destruct (digit_of c).
  - rewrite (digit_char d Hd). unfold render in IH. now rewrite IH.
Qed.

Lemma take_digits_render_nil ds : all_digits ds -> take_digits (render ds) = (ds, []).
Proof. intros H. rewrite <- (app_nil_r (render ds)). now apply take_digits_render. Qed.

(* The parts of a literal of the grammar, as options: sign (Some true = '-'), fraction digits, exponent (upper-case E?,
   sign, digits).  The ..._chars functions give the characters of a part; sign_neg, frac_digits and exp_value give what
   it contributes to the value; exp_wf: an exponent has at least one digit. *)
Definition sign_chars (s : option bool) : list ascii :=
  match s with None => [] | Some true => ["-"%char] | Some false => ["+"%char] end.
Definition sign_neg (s : option bool) : bool := match s with Some true => true | _ => false end.

Definition is_sign (c : ascii) : bool := is_minus c || is_plus c.

Lemma take_sign_chars s rest : head_not is_sign rest -> take_sign (sign_chars s ++ rest) = (sign_neg s, rest).
Proof.
  intros H. destruct s as [[|]|]; cbn; auto.
  destruct rest as [|c r]; cbn; auto. apply orb_false_iff in H as [-> ->]. reflexivity.
Qed.

Lemma render_no_sign ds rest : all_digits ds -> ds <> [] -> head_not is_sign (render ds ++ rest).
Proof.
  intros H Hn. destruct ds as [|d ds]; [congruence|]. inversion H; subst. cbn. unfold is_sign.
  destruct (digit_not_special _ d (digit_char d ltac:(assumption))) as (-> & -> & _). reflexivity.
Qed.

Definition e_char (upper : bool) : ascii := if upper then "E"%char else "e"%char.

Definition frac_chars (f : option (list Z)) : list ascii :=
  match f with None => [] | Some fp => "."%char :: render fp end.
Definition exp_chars (e : option (bool * option bool * list Z)) : list ascii :=
  match e with None => [] | Some (up, es, ed) => e_char up :: sign_chars es ++ render ed end.

Definition frac_digits (f : option (list Z)) : list Z := match f with None => [] | Some fp => fp end.
Definition exp_value (e : option (bool * option bool * list Z)) : Z :=
  match e with None => 0 | Some (_, es, ed) => if sign_neg es then - int_part ed else int_part ed end.
Definition exp_wf (e : option (bool * option bool * list Z)) : Prop :=
  match e with None => True | Some (_, _, ed) => all_digits ed /\ ed <> [] end.

(* sign? digits? (. digits?)? ([eE] sign? digits)? *)
Definition lit_chars (s : option bool) (ip : list Z) (f : option (list Z)) (e : option (bool * option bool * list Z)) :=
  sign_chars s ++ render ip ++ frac_chars f ++ exp_chars e.

(* its positional value: (sum d_i 10^(k-1-i) + sum f_j 10^-(j+1)) * 10^(+-x) *)
Definition lit_value (s : option bool) (ip : list Z) (f : option (list Z)) (e : option (bool * option bool * list Z)) : Q :=
  apply_sign (sign_neg s) ((inject_Z (int_part ip) + frac_part (frac_digits f)) * pow10 (exp_value e))%Q.

Lemma apply_sign_comp neg a b : (a == b)%Q -> (apply_sign neg a == apply_sign neg b)%Q.
Proof. intros H. destruct neg; cbn; now rewrite H. Qed.

Lemma denote_exp_chars neg m e :
  exp_wf e -> exists q, denote_exp neg m (exp_chars e) = Some (apply_sign neg q) /\ (q == m * pow10 (exp_value e))%Q.
Proof.
  destruct e as [[[up es] ed]|]; cbn [exp_chars exp_wf exp_value].
  - intros [Hd Hn]. eexists. split; [|reflexivity]. cbn [denote_exp].
    assert (is_e (e_char up) = true) as -> by (destruct up; reflexivity).
    rewrite take_sign_chars by (rewrite <- (app_nil_r (render ed)); now apply render_no_sign).
    rewrite take_digits_render_nil by auto.
    destruct ed as [|d ed]; [congruence|]. now rewrite <- !digits_val_int_part.
  - intros _. exists m. split; [reflexivity|]. rewrite pow10_0. ring.
Qed.

Lemma head_not_exp p e : p "e"%char = false -> p "E"%char = false -> head_not p (exp_chars e).
Proof. intros He HE. destruct e as [[[[] es] ed]|]; cbn; auto. Qed.

(* what follows the integer digits begins with '.', 'e' or 'E', if it is not empty *)
Lemma head_not_frac_exp p f e :
  p "."%char = false -> p "e"%char = false -> p "E"%char = false -> head_not p (frac_chars f ++ exp_chars e).
Proof. intros Hd He HE. destruct f; [exact Hd | now apply head_not_exp]. Qed.

Lemma take_frac_chars f e :
  match f with Some fp => all_digits fp | None => True end ->
  take_frac (frac_chars f ++ exp_chars e) = (frac_digits f, exp_chars e).
Proof.
  destruct f as [fp|]; cbn [frac_chars frac_digits].
  - intros H. cbn. apply take_digits_render; auto. now apply head_not_exp.
  - intros _. cbn [app]. pose proof (head_not_exp is_dot e eq_refl eq_refl) as H.
    destruct (exp_chars e) as [|c r]; cbn; auto. cbn in H. now rewrite H.
Qed.

Lemma denote_body_dec neg ip r1 :
  all_digits ip -> head_not is_digit r1 -> head_not is_slash r1 ->
  denote_body neg (render ip ++ r1) = denote_dec neg ip r1.
Proof.
  intros Hi Hd Hs. unfold denote_body. rewrite take_digits_render by assumption.
  destruct r1 as [|c r]; [reflexivity | now rewrite Hs].
Qed.

(* positional semantics of   sign? d1..dk (. f1..fm)? ([eE] sign? x1..xn)?   *)
Theorem denote_decimal_lemma s ip f e :
  all_digits ip -> match f with Some fp => all_digits fp | None => True end -> exp_wf e ->
  ip ++ frac_digits f <> [] ->
  exists q, denote (lit_chars s ip f e) = Some q /\ (q == lit_value s ip f e)%Q.
Proof.
  intros Hi Hf He Hne. unfold denote, lit_chars.
  assert (head_not is_sign (render ip ++ frac_chars f ++ exp_chars e)) as Hs
    by (destruct ip; [now apply (head_not_frac_exp is_sign) | apply render_no_sign; auto; discriminate]).
  rewrite take_sign_chars by exact Hs.
  rewrite denote_body_dec by (auto; now apply head_not_frac_exp).
  unfold denote_dec. rewrite take_frac_chars by auto. destruct (ip ++ frac_digits f) eqn:E; [congruence|].
  destruct (denote_exp_chars (sign_neg s) (mant_val ip (frac_digits f)) e He) as (q & -> & Hq).
  eexists. split; [reflexivity|]. apply apply_sign_comp. now rewrite Hq, mant_val_positional.
Qed.

(* sign? n1..nk / d1..dm *)
Theorem denote_fraction_lemma s np dp :
  all_digits np -> all_digits dp -> np <> [] -> int_part dp <> 0 ->
  denote (sign_chars s ++ render np ++ "/"%char :: render dp) =
  Some (apply_sign (sign_neg s) (int_part np # Z.to_pos (int_part dp))).
Proof.
  intros Hn Hd Hnn Hz. unfold denote.
  rewrite take_sign_chars by (now apply render_no_sign).
  unfold denote_body. rewrite take_digits_render by (auto; reflexivity).
  cbn [is_slash]. unfold denote_frac. rewrite take_digits_render_nil by auto.
  destruct np as [|n np]; [congruence|]. destruct dp as [|d dp]; [now elim Hz|].
  rewrite !digits_val_int_part. destruct (int_part (d :: dp) =? 0) eqn:E; [apply Z.eqb_eq in E; congruence|].
  reflexivity.
Qed.

Local Open Scope Q_scope.

(* a result of the sci reading and a result of [denote] agree: both reject, or both accept and name the same number *)
Definition sci_agree (a : option sci) (b : option Q) : Prop :=
  match a, b with
  | Some t, Some q => q == sci_val t
  | None, None => True
  | _, _ => False
  end.

Lemma sci_exp_spec neg n k m r :
  m == inject_Z n * pow10 k -> sci_agree (sci_exp neg n k r) (denote_exp neg m r).
Proof.
  intros Hm. unfold sci_exp, denote_exp. destruct r as [|c r3].
  - cbn. apply apply_sign_comp. rewrite Hm. unfold Qeq; cbn. ring.
  - destruct (is_e c); [|exact I]. destruct (take_sign r3) as [eneg r4]. destruct (take_digits r4) as [ed r5].
    destruct ed as [|d ed]; [exact I|]. destruct r5; [|exact I]. cbn [sci_agree sci_val].
    apply apply_sign_comp. rewrite Hm, pow10_add.
    setoid_replace (n # Z.to_pos 1) with (inject_Z n) by reflexivity. ring.
Qed.

Lemma sci_dec_spec neg ip r1 : sci_agree (sci_dec neg ip r1) (denote_dec neg ip r1).
Proof.
  unfold sci_dec, denote_dec. destruct (take_frac r1) as [fp r2].
  destruct (ip ++ fp) eqn:E; [exact I|]. rewrite <- E. apply sci_exp_spec. reflexivity.
Qed.

Lemma sci_frac_spec neg ip r2 : sci_agree (sci_frac neg ip r2) (denote_frac neg ip r2).
Proof.
  unfold sci_frac, denote_frac. destruct (take_digits r2) as [dp r3].
  destruct ip; [exact I|]. destruct dp; [exact I|]. destruct r3; [|exact I].
  destruct (digits_val (z0 :: dp) =? 0)%Z; [exact I|]. cbn [sci_agree sci_val].
  apply apply_sign_comp. rewrite pow10_0. ring.
Qed.

(* [denote_sci] accepts exactly the strings [denote] accepts and names the same number *)
Lemma denote_sci_spec s : sci_agree (denote_sci s) (denote s).
Proof.
  unfold denote_sci, denote. destruct (take_sign s) as [neg r0]. unfold sci_body, denote_body.
  destruct (take_digits r0) as [ip r1]. destruct r1 as [|c r2].
  - apply sci_dec_spec.
  - destruct (is_slash c); [apply sci_frac_spec|apply sci_dec_spec].
Qed.

Local Open Scope Z_scope.

Lemma uint_digits_all u : all_digits (uint_digits u).
Proof. induction u; cbn; constructor; auto; lia. Qed.

Lemma of_uint_acc_digits u acc :
  Z.pos (Pos.of_uint_acc u acc) = fold_left (fun a d => 10 * a + d) (uint_digits u) (Z.pos acc).
Proof.
  revert acc. induction u; intros acc; cbn [Pos.of_uint_acc uint_digits fold_left]; auto;
    rewrite IHu; f_equal; lia.
Qed.

Lemma of_uint_digits u : Z.of_N (Pos.of_uint u) = digits_val (uint_digits u).
Proof.
  unfold digits_val. induction u; cbn [Pos.of_uint uint_digits fold_left]; auto;
    try (cbn [Z.of_N]; rewrite of_uint_acc_digits; f_equal; lia).
Qed.

Lemma print_pos_digits p :
  all_digits (uint_digits (Pos.to_uint p)) /\ uint_digits (Pos.to_uint p) <> [] /\
  int_part (uint_digits (Pos.to_uint p)) = Z.pos p.
Proof.
  split; [apply uint_digits_all|].
  assert (digits_val (uint_digits (Pos.to_uint p)) = Z.pos p) as H.
  { rewrite <- of_uint_digits, DecimalPos.Unsigned.of_to. reflexivity. }
  split.
  - intros E. rewrite E in H. discriminate H.
  - now rewrite <- digits_val_int_part.
Qed.

Lemma print_Z_lit z : exists s ds,
  print_Z z = sign_chars s ++ render ds /\ all_digits ds /\ ds <> [] /\
  (if sign_neg s then - int_part ds else int_part ds) = z.
Proof.
  destruct z as [|p|p]; [exists None, [0] | exists None, (uint_digits (Pos.to_uint p))
                       | exists (Some true), (uint_digits (Pos.to_uint p))];
    cbn [sign_neg]; try destruct (print_pos_digits p) as (Ha & Hn & ->); repeat split; auto.
  - repeat constructor; lia.
  - discriminate.
Qed.

Lemma denote_print_Z z q :
  (inject_Z z == q)%Q -> exists q', denote (print_Z z) = Some q' /\ (q' == q)%Q.
Proof.
  intros E. destruct (print_Z_lit z) as (s & ds & -> & Ha & Hn & <-).
  destruct (denote_decimal_lemma s ds None None Ha I I) as (q' & Hq & Hv); [now rewrite app_nil_r|].
  unfold lit_chars in Hq. cbn [frac_chars exp_chars] in Hq. rewrite !app_nil_r in Hq.
  exists q'. split; [exact Hq|]. rewrite <- E, Hv. unfold lit_value. cbn [frac_digits frac_part exp_value].
  destruct (sign_neg s); cbn [apply_sign]; rewrite pow10_0, ?inject_Z_opp; ring.
Qed.

Lemma denote_print_frac n d q :
  (n # d == q)%Q -> exists q', denote (print_Z n ++ "/"%char :: print_pos d) = Some q' /\ (q' == q)%Q.
Proof.
  intros E. destruct (print_Z_lit n) as (s & np & -> & Ha & Hn & <-). destruct (print_pos_digits d) as (Ha' & Hn' & Hv).
  unfold print_pos. rewrite <- app_assoc, denote_fraction_lemma by (auto; rewrite Hv; discriminate).
  eexists. split; [reflexivity|]. rewrite <- E, Hv. destruct (sign_neg s); reflexivity.
Qed.

Theorem print_parse_rational_lemma q : exists q', denote (print_q q) = Some q' /\ (q' == q)%Q.
Proof.
  unfold print_q. pose proof (Qred_correct q) as HR. destruct (Qred q) as [n d]. cbn [Qnum Qden].
  destruct d as [d|d|]; [now apply denote_print_frac.. | now apply denote_print_Z].
Qed.

Local Open Scope Q_scope.

(* two correctly rounded images of the same rational are the same number, or the rational is exactly half way *)
Lemma closest_unique_up_to_tie q m1 e1 m2 e2 :
  closest q m1 e1 -> closest q m2 e2 ->
  dyadic_val m1 e1 == dyadic_val m2 e2 \/
  (dyadic_val m1 e1 + dyadic_val m2 e2 == 2 * q /\ Qabs (q - dyadic_val m1 e1) == Qabs (q - dyadic_val m2 e2)).
Proof.
  intros [D1 H1] [D2 H2]. specialize (H1 m2 e2 D2). specialize (H2 m1 e1 D1).
  set (a := dyadic_val m1 e1) in *. set (b := dyadic_val m2 e2) in *.
  assert (Qabs (q - a) == Qabs (q - b)) as E by (apply Qle_antisym; assumption).
  assert (a == b \/ a + b == 2 * q) as [T|T]; [|left; exact T|right; split; [exact T|exact E]].
  revert E. apply (Qabs_case (q - a)); apply (Qabs_case (q - b)); intros Hb Ha E; [left|right|right|left]; lra.
Qed.

Definition lit_1em1 : list ascii := ["1"; "e"; "-"; "1"]%char.
Definition lit_m0p0 : list ascii := ["-"; "0"; "."; "0"]%char.
Definition lit_1e400 : list ascii := ["1"; "e"; "4"; "0"; "0"]%char.
Definition lit_1e23 : list ascii := ["1"; "e"; "2"; "3"]%char.

Lemma five_not_div_pow2 k : (0 <= k)%Z -> ~ (5 | 2 ^ k)%Z.
Proof.
  intros Hk. pattern k. apply natlike_ind; auto.
  - cbn. intros [c Hc]. lia.
  - intros x Hx IH H. rewrite Z.pow_succ_r in H by lia. apply IH.
    apply (Z.gauss 5 2); auto.
Qed.

(* no dyadic rational equals one tenth: whatever finite double pow(10,-1) returns, "1e-1" is not read exactly *)
Lemma dyadic_not_tenth m e : ~ dyadic_val m e == 1 # 10.
Proof.
  unfold dyadic_val. destruct (0 <=? e)%Z eqn:E.
  - unfold Qeq, inject_Z; cbn [Qnum Qden]. intros H. lia.
  - apply Z.leb_gt in E. unfold Qeq; cbn [Qnum Qden]. intros H.
    assert (0 < 2 ^ (- e))%Z as P by (apply Z.pow_pos_nonneg; lia).
    rewrite Z2Pos.id in H by exact P.
    apply (five_not_div_pow2 (- e)); [lia|]. exists (2 * m)%Z. lia.
Qed.

Lemma dbl_to_raw_val m e :
  exists n d, dbl_to_raw (DFin m e) = Some (n, d) /\ (0 < d)%Z /\ n # Z.to_pos d == dyadic_val m e.
Proof.
  unfold dbl_to_raw, dyadic_val. destruct (0 <=? e)%Z eqn:E.
  - exists (m * 2 ^ e)%Z, 1%Z. split; auto. split; [lia|]. reflexivity.
  - apply Z.leb_gt in E. set (D := (2 ^ (- e))%Z). assert (0 < D)%Z as PD by (apply Z.pow_pos_nonneg; lia).
    pose proof (Z.gcd_nonneg m D) as G0. pose proof (Z.gcd_divide_r m D) as GD.
    destruct (Z.eqb_spec (Z.gcd m D) 0) as [G|G]; [apply Z.gcd_eq_0_r in G; lia|].
    assert (0 < D / Z.gcd m D)%Z as Pb by (apply Z.div_str_pos; split; [lia | apply Z.divide_pos_le; assumption]).
    exists (m / Z.gcd m D)%Z, (D / Z.gcd m D)%Z. split; [reflexivity|]. split; [exact Pb|].
    unfold Qeq; cbn [Qnum Qden]. rewrite !Z2Pos.id by assumption. apply Z.gcd_div_swap.
Qed.

(* "1e<t>": the mantissa is 1 / 1, the exponent is what std::stoi reads from t *)
Lemma rat_code_1e pw t k :
  stoi t = Some k ->
  rat_code pw ("1"%char :: "e"%char :: t) =
  match dbl_to_raw (pw k) with
  | None => OCrash
  | Some (pn, pd) => let (rn, rd) := mpq_mul_raw 1 1 pn pd in OVal rn rd
  end.
Proof. intros H. unfold rat_code. cbn. rewrite H. reflexivity. Qed.

Lemma rat_code_1em1 pw m e :
  pw (-1)%Z = DFin m e ->
  exists a, outcome_val (rat_code pw lit_1em1) = Some a /\ a == dyadic_val m e.
Proof.
  intros H. destruct (dbl_to_raw_val m e) as (n & d & Hr & Pd & Hv).
  unfold lit_1em1. rewrite (rat_code_1e pw ["-"; "1"]%char (-1) eq_refl), H, Hr. unfold mpq_mul_raw. cbn [Z.eqb orb].
  destruct (n =? 0)%Z eqn:N.
  - apply Z.eqb_eq in N. subst n. exists 0. split; [reflexivity|]. rewrite <- Hv. reflexivity.
  - rewrite Z.gcd_1_l, Z.gcd_1_r, !Z.div_1_r, !Z.mul_1_l, !Z.mul_1_r. cbn [outcome_val]. unfold raw_val.
    destruct (d =? 0)%Z eqn:D0; [apply Z.eqb_eq in D0; lia|].
    destruct (0 <? d)%Z eqn:D1; [|apply Z.ltb_ge in D1; lia].
    exists (n # Z.to_pos d). split; [reflexivity|exact Hv].
Qed.

Lemma denote_1em1 : exists q, denote lit_1em1 = Some q /\ q == 1 # 10.
Proof. eexists. split; [vm_compute; reflexivity|]. reflexivity. Qed.

Theorem ratFromString_exact_refuted_lemma :
  forall pw : Z -> dbl, (exists m e, pw (-1)%Z = DFin m e) ->
  exists lit q, denote lit = Some q /\
                exists a, outcome_val (rat_code pw lit) = Some a /\ ~ a == q.
Proof.
  intros pw (m & e & H). destruct denote_1em1 as (q & Hq & Hv). exists lit_1em1, q. split; auto.
  destruct (rat_code_1em1 pw m e H) as (a & Ha & Hav). exists a. split; auto.
  rewrite Hv, Hav. apply dyadic_not_tenth.
Qed.

(* with the correctly rounded pow(10,-1) the stored pair is the one the implementation prints *)
Lemma rat_code_1em1_value pw :
  pw (-1)%Z = DFin 3602879701896397 (-55) ->
  rat_code pw lit_1em1 = OVal 3602879701896397 36028797018963968.
Proof.
  intros H. unfold lit_1em1. rewrite (rat_code_1e pw ["-"; "1"]%char (-1) eq_refl), H. vm_compute. reflexivity.
Qed.

(* "-0.0" (in the grammar, denotes 0): the zero-stripping of the negative branch erases the whole mantissa, the
   conversion of "-/10" throws; the LP reader then keeps its initial value 1 *)
Lemma rat_code_neg_zero pw :
  rat_code pw lit_m0p0 = OThrow /\ lpf_value pw lit_m0p0 = OVal 1 1 /\
  exists q, denote lit_m0p0 = Some q /\ q == 0.
Proof.
  split; [reflexivity|]. split; [reflexivity|].
  eexists. split; [vm_compute; reflexivity|]. reflexivity.
Qed.

(* "1e400": pow(10, 400) is +infinity, its conversion to Rational raises SIGFPE inside GMP *)
Lemma rat_code_overflow pw :
  pw 400%Z = DPInf -> rat_code pw lit_1e400 = OCrash /\ exists q, denote lit_1e400 = Some q.
Proof.
  intros H. split.
  - unfold lit_1e400. rewrite (rat_code_1e pw ["4"; "0"; "0"]%char 400 eq_refl), H. reflexivity.
  - (* in the grammar by its shape: evaluating [denote] would compute 10^400 *)
    destruct (denote_decimal_lemma None [1%Z] None (Some (false, None, [4; 0; 0]%Z))) as (q & Hq & _);
      [repeat constructor; lia | exact I | split; [repeat constructor; lia | discriminate] | discriminate|].
    exists q. exact Hq.
Qed.

(* "1e23": positive exponents above 22 are inexact as well (10^23 is not a double) *)
Lemma rat_code_1e23 pw :
  pw 23%Z = DFin 5960464477539063 24 ->     (* what glibc pow(10, 23) returns: 1.0000000000000001e23 *)
  rat_code pw lit_1e23 = OVal 100000000000000008388608 1 /\
  exists q, denote lit_1e23 = Some q /\ q == inject_Z (10 ^ 23).
Proof.
  intros H. split.
  - unfold lit_1e23. rewrite (rat_code_1e pw ["2"; "3"]%char 23 eq_refl), H. vm_compute. reflexivity.
  - eexists. split; [vm_compute; reflexivity|]. reflexivity.
Qed.
