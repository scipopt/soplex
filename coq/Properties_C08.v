(* C08 - Presolve verdicts are true; postsolve maps optimal solutions to optimal ones.

   What is proved here (each theorem is closed by a lemma of Postsolve_Proofs, RowSingleton_Proofs, RowSingleton_Signs,
   FreeColSingleton_Proofs, Doubleton_Proofs.v or by a one-line instance of one): for the post-solve steps of SPxMainSM, modelled in
   PostsolveModel.v case split by case split (the model is replayed against `PostStep::execute` on every run of the
   check), and for LPs / vectors of EVERY dimension:
     - identities:   if  s = A'x  and  r = c' - A'^T y  hold for the LP after the reduction, then after `execute` they hold
                     for the LP before it;
     - feasibility and signs: bounds, sides and the complementary-slackness sign conditions carry over;
     - basis count:  the number of BASIC entries stays equal to the number of rows;
   and that these invariants, once they hold for the original LP at the end of the walk, make the unsimplified vectors an
   exact optimality certificate (C08_invariants_give_optimality, through the proved checker of Cert.v).
   The order of the reductions and which of them fire is the simplifier's choice and is not modelled; steps without a
   general theorem here are covered per run by the composite validation (check_opt_tol on the original LP).
   The simplifier works in minimisation form; comparisons are the exact instance of the model (`exact_cmps`) wherever a
   theorem depends on them, most statements hold for every comparison record `c`. *)
From Coq Require Import QArith Qabs List Bool Lia.
From SV Require Import Vec LP Cert Cert_Proofs PostsolveModel Postsolve_Proofs RowSingleton_Proofs RowSingleton_Signs FreeColSingleton_Proofs Doubleton_Proofs.
Import ListNotations.
Local Open Scope Q_scope.

Theorem C08_invariants_give_optimality : forall (P : lp) (t : st),
  maximize P = false -> wf_lp P -> (ncols P <= length (sx t))%nat -> (nrows P <= length (sy t))%nat ->
  prim_ident P t -> dual_ident P t -> prim_feas P t -> dual_signs P t ->
  check_opt_exact P (firstn (ncols P) (sx t)) (firstn (nrows P) (sy t)) = true /\ optimal P (firstn (ncols P) (sx t)).
Proof. exact invariants_give_optimality. Qed.
Print Assumptions C08_invariants_give_optimality.

(* FreeConstraintPS *)
Theorem C08_FreeConstraint_preserves_identities : forall P i t, wf_lp P -> (i < nrows P)%nat ->
  prim_ident (red_remove_row P i) t /\ dual_ident (red_remove_row P i) t ->
  let t' := exec_FreeConstraint i (nrows P - 1) (sp_row P i) 0 t in prim_ident P t' /\ dual_ident P t'.
Proof. intros P i t W Hi. exact (restored_row_identities P i _ t Hi (sdot_sp_row P i _ W Hi)). Qed.
Print Assumptions C08_FreeConstraint_preserves_identities.

Theorem C08_FreeConstraint_preserves_feasibility_and_signs : forall P i t, (i < nrows P)%nat ->
  r_lhs (rowi P i) = None -> r_rhs (rowi P i) = None ->
  prim_feas (red_remove_row P i) t /\ dual_signs (red_remove_row P i) t ->
  let t' := exec_FreeConstraint i (nrows P - 1) (sp_row P i) 0 t in prim_feas P t' /\ dual_signs P t'.
Proof. intros P i t Hi Hl Hr. apply restored_row_feasibility_and_signs; [exact Hi | rewrite Hl, Hr; split; exact I]. Qed.
Print Assumptions C08_FreeConstraint_preserves_feasibility_and_signs.

Theorem C08_FreeConstraint_basis_count : forall P i t, (i < nrows P)%nat ->
  basis_count (red_remove_row P i) t -> basis_count P (exec_FreeConstraint i (nrows P - 1) (sp_row P i) 0 t).
Proof. intros P i t. apply restored_row_basis_count. Qed.
Print Assumptions C08_FreeConstraint_basis_count.

(* EmptyConstraintPS *)
Theorem C08_EmptyConstraint_preserves_identities : forall P i t, wf_lp P -> (i < nrows P)%nat -> empty_row P i ->
  prim_ident (red_remove_row P i) t /\ dual_ident (red_remove_row P i) t ->
  let t' := exec_EmptyConstraint i (nrows P - 1) 0 t in prim_ident P t' /\ dual_ident P t'.
Proof. intros P i t _ Hi He. exact (restored_row_identities P i [] t Hi (empty_row_activity P i _ He)). Qed.
Print Assumptions C08_EmptyConstraint_preserves_identities.

Theorem C08_EmptyConstraint_preserves_feasibility_and_signs : forall P i t, (i < nrows P)%nat ->
  in_bounds (r_lhs (rowi P i)) (r_rhs (rowi P i)) 0 ->
  prim_feas (red_remove_row P i) t /\ dual_signs (red_remove_row P i) t ->
  let t' := exec_EmptyConstraint i (nrows P - 1) 0 t in prim_feas P t' /\ dual_signs P t'.
Proof. intros P i t. exact (restored_row_feasibility_and_signs P i [] t). Qed.
Print Assumptions C08_EmptyConstraint_preserves_feasibility_and_signs.

Theorem C08_EmptyConstraint_basis_count : forall P i t, (i < nrows P)%nat ->
  basis_count (red_remove_row P i) t -> basis_count P (exec_EmptyConstraint i (nrows P - 1) 0 t).
Proof. intros P i t. exact (restored_row_basis_count P i [] 0 t). Qed.
Print Assumptions C08_EmptyConstraint_basis_count.

(* FixVariablePS (for every comparison record c and every recorded lower/upper: they only select the non-basic status) *)
Theorem C08_FixVariable_preserves_identities : forall P j val, wf_lp P -> (j < ncols P)%nat -> forall c lower upper t,
  prim_ident (red_FixVariable P j val) t /\ dual_ident (red_FixVariable P j val) t ->
  let t' := exec_FixVariable c j (ncols P - 1) val (c_obj (colj P j)) lower upper true (sp_col P j) t in
  prim_ident P t' /\ dual_ident P t'.
Proof. intros P j val W Hj c lo up t [H1 H2]. split; [now apply FixVariable_prim|now apply FixVariable_dual]. Qed.
Print Assumptions C08_FixVariable_preserves_identities.

Theorem C08_FixVariable_preserves_feasibility_and_signs : forall P j val, wf_lp P -> (j < ncols P)%nat -> forall c lower upper t,
  in_bounds (c_lo (colj P j)) (c_up (colj P j)) val -> fix_justified P j val ->
  prim_feas (red_FixVariable P j val) t /\ dual_signs (red_FixVariable P j val) t ->
  let t' := exec_FixVariable c j (ncols P - 1) val (c_obj (colj P j)) lower upper true (sp_col P j) t in
  prim_feas P t' /\ dual_signs P t'.
Proof. intros P j val W Hj c lo up t Hb Hju [H1 H2]. split; [now apply FixVariable_feas|now apply FixVariable_signs]. Qed.
Print Assumptions C08_FixVariable_preserves_feasibility_and_signs.

Theorem C08_FixVariable_basis_count : forall P j val, (j < ncols P)%nat -> forall c lower upper t,
  basis_count (red_FixVariable P j val) t ->
  basis_count P (exec_FixVariable c j (ncols P - 1) val (c_obj (colj P j)) lower upper true (sp_col P j) t).
Proof. intros P j val Hj c lo up t H. now apply FixVariable_count. Qed.
Print Assumptions C08_FixVariable_basis_count.

(* same objective value: the objective offset of the reduced LP carries c_j * val *)
Theorem C08_FixVariable_same_objective : forall P j val, (j < ncols P)%nat -> forall c lower upper t,
  objective P (sx (exec_FixVariable c j (ncols P - 1) val (c_obj (colj P j)) lower upper true (sp_col P j) t))
  == objective (red_FixVariable P j val) (sx t).
Proof. intros P j val Hj c lo up t. now apply FixVariable_objective. Qed.
Print Assumptions C08_FixVariable_same_objective.

(* FixBoundsPS *)
Theorem C08_FixBounds_preserves_identities : forall P j val, (j < ncols P)%nat -> forall s t,
  prim_ident (red_FixBounds P j val) t /\ dual_ident (red_FixBounds P j val) t ->
  prim_ident P (exec_FixBounds j s t) /\ dual_ident P (exec_FixBounds j s t).
Proof. intros P j val Hj s t. now apply FixBounds_identities. Qed.
Print Assumptions C08_FixBounds_preserves_identities.

Theorem C08_FixBounds_preserves_feasibility_and_signs : forall P j val, (j < ncols P)%nat -> forall s t,
  in_bounds (c_lo (colj P j)) (c_up (colj P j)) val -> dominated_up P j val \/ dominated_lo P j val ->
  prim_feas (red_FixBounds P j val) t -> dual_ident (red_FixBounds P j val) t -> dual_signs (red_FixBounds P j val) t ->
  prim_feas P (exec_FixBounds j s t) /\ dual_signs P (exec_FixBounds j s t).
Proof. intros P j val Hj s t Hb Hd F I S. split; [now apply (FixBounds_feas P j val Hj)|now apply (FixBounds_signs P j val Hj)]. Qed.
Print Assumptions C08_FixBounds_preserves_feasibility_and_signs.

Theorem C08_FixBounds_basis_count : forall P j val, (j < ncols P)%nat -> forall s t,
  is_basic (gcs t j) = false -> is_basic s = false ->
  basis_count (red_FixBounds P j val) t -> basis_count P (exec_FixBounds j s t).
Proof. intros P j val Hj s t B1 B2. apply FixBounds_count; [exact Hj | congruence]. Qed.
Print Assumptions C08_FixBounds_basis_count.

(* RowObjPS (the row objective has no counterpart in LP.v: the sign condition of the restored row is not stated) *)
Theorem C08_RowObj_preserves_identities : forall P i w, wf_lp P -> (i < nrows P)%nat -> forall t,
  prim_ident (red_RowObj P i w) t /\ dual_ident (red_RowObj P i w) t ->
  prim_ident P (exec_RowObj i (ncols P) t) /\ dual_ident P (exec_RowObj i (ncols P) t).
Proof. intros P i w W Hi t. now apply RowObj_identities. Qed.
Print Assumptions C08_RowObj_preserves_identities.

Theorem C08_RowObj_preserves_feasibility_partial : forall P i w, (i < nrows P)%nat -> forall t,
  prim_feas (red_RowObj P i w) t -> prim_feas P (exec_RowObj i (ncols P) t).
Proof. intros P i w Hi t. now apply RowObj_feasibility_partial. Qed.
Print Assumptions C08_RowObj_preserves_feasibility_partial.

Theorem C08_RowObj_basis_count : forall P i w, (i < nrows P)%nat -> forall t,
  ~ (is_basic (grs t i) = true /\ is_basic (gcs t (ncols P)) = true) ->
  basis_count (red_RowObj P i w) t -> basis_count P (exec_RowObj i (ncols P) t).
Proof. intros P i w Hi t. now apply RowObj_count. Qed.
Print Assumptions C08_RowObj_basis_count.

(* RowSingletonPS: row i has its only entry a_ij in column j and was removed (its sides became bounds of x_j).  For EVERY
   comparison record, every recorded side and bound and every branch the comparisons select (slack basic with the
   reduced cost kept or recomputed, x_j basic with y_i = val / a_ij, both basic) the restored point satisfies both
   identities; the premise "a basic column of the reduced solution has reduced cost 0" is what the both-basic branch
   uses when it writes r_j = 0. *)
Theorem C08_RowSingleton_preserves_identities : forall P i j c lhs rhs oldLo oldUp t,
  wf_lp P -> (i < nrows P)%nat -> (j < ncols P)%nat -> singleton_row P i j -> ~ coef P i j == 0 ->
  gcs t j <> UNDEFINED -> (gcs t j = BASIC -> gr t j == 0) ->
  prim_ident (red_remove_row P i) t /\ dual_ident (red_remove_row P i) t ->
  let t' := exec_RowSingleton c i (nrows P - 1) j lhs rhs (c_obj (colj P j)) (sp_col P j) oldLo oldUp 0 t in
  prim_ident P t' /\ dual_ident P t'.
Proof. intros P i j c lhs rhs oldLo oldUp t _. apply RowSingleton_identities. Qed.
Print Assumptions C08_RowSingleton_preserves_identities.

(* the decision of RowSingletonPS ends in one of three shapes: only y_i and r_j are written besides the statuses *)
Theorem C08_RowSingleton_decision_shapes : forall i j val a c t0 lhs rhs oldLo oldUp, gcs t0 j <> UNDEFINED ->
  RS i j val a t0 (rs_decide c t0 i j lhs rhs a val oldLo oldUp 0).
Proof. exact RS_decide. Qed.
Print Assumptions C08_RowSingleton_decision_shapes.

(* the premises are satisfiable: min x0 + 2 x1, row 0: x0 + x1 >= 1, row 1 (singleton): 2 x1 <= 6; reduced solution x = (1, 0) *)
Example C08_RowSingleton_example :
  let P := {| maximize := false; offset := 0;
              cols := [{| c_obj := 1; c_lo := Some 0; c_up := None |}; {| c_obj := 2; c_lo := Some 0; c_up := None |}];
              rows := [{| r_lhs := Some 1; r_coef := [1; 1]; r_rhs := None |}; {| r_lhs := None; r_coef := [0; 2]; r_rhs := Some 6 |}] |} in
  let t := mkst [1; 0] [1] [1] [0; 1] [BASIC; ON_LOWER] [ON_LOWER] in
  let t' := exec_RowSingleton (exact_cmps (inject_Z (10 ^ 100))) 1 1 1 (-(inject_Z (10 ^ 100))) 6 2 (sp_col P 1) 0 (inject_Z (10 ^ 100)) 0 t in
  prim_ident_b (red_remove_row P 1) t && dual_ident_b (red_remove_row P 1) t && prim_ident_b P t' && dual_ident_b P t'
  && vstat_eqb (grs t' 1) BASIC = true.
Proof. vm_compute. reflexivity. Qed.

(* RowSingletonPS, branch "the upper bound the singleton row implies equals the variable's own LOWER bound" (x_j is pinned at it;
   exact comparisons): the sign of the reduced cost decides.  Negative: the row holds x_j down - the column becomes basic and the row gets
   the multiplier val / a_ij, negative with the row's upper side tight for a_ij > 0, positive with its lower side tight for a_ij < 0.
   Otherwise the own bound holds it: the row is basic with multiplier 0 and x_j stays non-basic at its lower bound with a non-negative
   reduced cost.  In both cases the multipliers have the signs complementary slackness needs. *)
Theorem C08_RowSingleton_opposite_bound_signs : forall inf i j lhs rhs aij val oldLo oldUp t0,
  let newLo := if Qltb' 0 aij then lhs / aij else rhs / aij in
  let newUp := if Qltb' 0 aij then rhs / aij else lhs / aij in
  gcs t0 j = FIXED -> (Qleb newLo oldLo && Qleb oldUp newUp) = false -> Qeq_bool newLo newUp = false -> Qeq_bool newLo oldUp = false ->
  Qeq_bool newUp oldLo = true -> ~ aij == 0 -> gx t0 j == oldLo -> val == gr t0 j ->
  let t' := rs_decide (exact_cmps inf) t0 i j lhs rhs aij val oldLo oldUp 0 in
  (gy t' i < 0 -> rhs == aij * gx t' j) /\ (0 < gy t' i -> lhs == aij * gx t' j) /\
  (0 < gr t' j -> oldLo == gx t' j) /\ ~ gr t' j < 0.
Proof.
  intros inf i j lhs rhs aij val oldLo oldUp t0 newLo newUp Hst H2 H3 H4 H5.
  exact (opposite_bound_signs inf i j lhs rhs aij val oldLo oldUp t0 false Hst H2 H3 (conj H4 H5)).
Qed.
Print Assumptions C08_RowSingleton_opposite_bound_signs.

(* the mirrored branch: the LOWER bound the row implies equals the variable's own UPPER bound *)
Theorem C08_RowSingleton_opposite_bound_signs_upper : forall inf i j lhs rhs aij val oldLo oldUp t0,
  let newLo := if Qltb' 0 aij then lhs / aij else rhs / aij in
  let newUp := if Qltb' 0 aij then rhs / aij else lhs / aij in
  gcs t0 j = FIXED -> (Qleb newLo oldLo && Qleb oldUp newUp) = false -> Qeq_bool newLo newUp = false -> Qeq_bool newLo oldUp = true ->
  ~ aij == 0 -> gx t0 j == oldUp -> val == gr t0 j ->
  let t' := rs_decide (exact_cmps inf) t0 i j lhs rhs aij val oldLo oldUp 0 in
  (gy t' i < 0 -> rhs == aij * gx t' j) /\ (0 < gy t' i -> lhs == aij * gx t' j) /\
  (gr t' j < 0 -> oldUp == gx t' j) /\ ~ 0 < gr t' j.
Proof. intros inf i j lhs rhs aij val oldLo oldUp t0. exact (opposite_bound_signs inf i j lhs rhs aij val oldLo oldUp t0 true). Qed.
Print Assumptions C08_RowSingleton_opposite_bound_signs_upper.

(* the hypotheses are satisfiable: 0 <= x_0 <= 10 with the singleton row x_0 <= 0 (lhs -100 stands for a remote side), reduced cost -2 *)
Example C08_RowSingleton_opposite_bound_example :
  let t0 := mkst [0] [0] [0] [-2] [FIXED] [UNDEFINED] in
  let t' := rs_decide (exact_cmps (inject_Z (10 ^ 100))) t0 0 0 (-100) 0 1 (-2) 0 10 0 in
  Qeq_bool (gy t' 0) (-2) && Qeq_bool (gr t' 0) 0 && vstat_eqb (gcs t' 0) BASIC && vstat_eqb (grs t' 0) ON_UPPER = true.
Proof. vm_compute. reflexivity. Qed.

(* FreeColSingletonPS: column j occurs in row i only (a_ij <> 0) and was free: row i and column j were removed and the
   cost of x_j moved onto the other columns of the row, c_k - (c_j / a_ij) a_ik.  With the row and the column put back
   (x_j from the row's side lRhs, y_i = c_j / a_ij, r_j = 0) both identities hold for the original LP; stated for the
   exact-comparison instance (the tolerance instance rounds x_j's numerator to 0 below epsilon). *)
Theorem C08_FreeColSingleton_preserves_identities : forall P i j, wf_lp P -> (i < nrows P)%nat -> (j < ncols P)%nat ->
  (forall l, l <> i -> coef P l j == 0) -> ~ coef P i j == 0 ->
  forall inf lRhs onLhs eqCons t,
  let R := red_FreeColSingleton P i j (c_obj (colj P j) / coef P i j) in
  prim_ident R t /\ dual_ident R t ->
  let t' := exec_FreeColSingleton (exact_cmps inf) j i (ncols P - 1) (nrows P - 1) (c_obj (colj P j)) lRhs onLhs eqCons (sp_row P i) t in
  prim_ident P t' /\ dual_ident P t'.
Proof. intros P i j W Hi Hj Hs Ha inf lRhs onLhs eqCons t. apply FreeColSingleton_identities; auto. intros v. apply scaled_diff_exact. Qed.
Print Assumptions C08_FreeColSingleton_preserves_identities.

(* non-vacuity: min x0 + 2 x1 + 3 x2, row 0: x0 + x1 >= 1, row 1: x1 + 2 x2 = 4 with x2 free, a singleton in row 1.
   Reduced LP: min x0 + 1/2 x1, row 0 only; its solution x = (1, 0), y = (1), r = (0, -1/2) is restored to x2 = 2, y1 = 3/2 *)
Example C08_FreeColSingleton_example :
  let P := {| maximize := false; offset := 0;
              cols := [{| c_obj := 1; c_lo := Some 0; c_up := None |}; {| c_obj := 2; c_lo := Some 0; c_up := None |};
                       {| c_obj := 3; c_lo := None; c_up := None |}];
              rows := [{| r_lhs := Some 1; r_coef := [1; 1; 0]; r_rhs := None |}; {| r_lhs := Some 4; r_coef := [0; 1; 2]; r_rhs := Some 4 |}] |} in
  let R := red_FreeColSingleton P 1 2 (3 / 2) in
  let t := mkst [1; 0] [1] [1] [0; -(1 # 2)] [BASIC; ON_LOWER] [ON_LOWER] in
  let t' := exec_FreeColSingleton (exact_cmps (inject_Z (10 ^ 100))) 2 1 2 1 3 4 true true (sp_row P 1) t in
  prim_ident_b R t && dual_ident_b R t && prim_ident_b P t' && dual_ident_b P t' && Qeq_bool (gx t' 2) 2 && Qeq_bool (gy t' 1) (3 # 2) = true.
Proof. vm_compute. reflexivity. Qed.

(* DoubletonEquationPS: when the step fires (the transferred bound of x_k is active) it chooses the multiplier of the equation row
   i so that column k gets reduced cost 0, and prices the singleton column j with its own coefficient a_ij: both dual identities
   hold for the two columns, nothing else is touched.  For every comparison record and every recorded datum. *)
Theorem C08_DoubletonEquation_dual_update : forall c j k i ms jf jObj kObj aij slo sup loj col t,
  dbl_fires c j k ms slo sup t = true -> j <> k -> ~ sget col i == 0 ->
  let t' := exec_DoubletonEquation c j k i ms jf jObj kObj aij slo sup loj col t in
  gr t' k == kObj - (sdot_skip col i (sy t') + sget col i * gy t' i) /\
  gr t' j == jObj - aij * gy t' i /\
  (forall l, l <> i -> gy t' l = gy t l) /\ (forall q, q <> j -> q <> k -> gr t' q = gr t q).
Proof. exact DoubletonEquation_dual_update. Qed.
Print Assumptions C08_DoubletonEquation_dual_update.

Example C08_DoubletonEquation_example :
  let t := mkst [0; 2] [0; 0] [0; 0] [5; 1] [ON_LOWER; ON_LOWER] [BASIC; BASIC] in
  dbl_fires (exact_cmps (inject_Z (10 ^ 100))) 0 1 false true false t = true /\
  let t' := exec_DoubletonEquation (exact_cmps (inject_Z (10 ^ 100))) 0 1 0 false false 5 1 3 true false 0 [(0%nat, 2); (1%nat, 1)] t in
  Qeq_bool (gy t' 0) (1 # 2) && Qeq_bool (gr t' 1) 0 && Qeq_bool (gr t' 0) (7 # 2) && vstat_eqb (gcs t' 1) BASIC = true.
Proof. vm_compute. split; reflexivity. Qed.

(* basis count of further steps (dimensions n1, m1 of the reduced LP) *)
Theorem C08_FreeColSingleton_basis_count : forall c j i n1 m1 obj lRhs onLhs eqCons row t, (j <= n1)%nat -> (i <= m1)%nat ->
  (cntb (scs t) n1 + cntb (srs t) m1 = m1)%nat ->
  let t' := exec_FreeColSingleton c j i n1 m1 obj lRhs onLhs eqCons row t in
  (cntb (scs t') (S n1) + cntb (srs t') (S m1) = S m1)%nat.
Proof. intros c j i n1 m1 obj lRhs onLhs eqCons row t Hj Hi H. cbv zeta. rewrite FreeColSingleton_count by assumption. lia. Qed.
Print Assumptions C08_FreeColSingleton_basis_count.

Theorem C08_MultiAggregation_basis_count : forall c j i n1 m1 obj cst onLhs eqCons row col t, (j <= n1)%nat -> (i <= m1)%nat ->
  (cntb (scs t) n1 + cntb (srs t) m1 = m1)%nat ->
  let t' := exec_MultiAggregation c j i n1 m1 obj cst onLhs eqCons row col t in
  (cntb (scs t') (S n1) + cntb (srs t') (S m1) = S m1)%nat.
Proof. intros c j i n1 m1 obj cst onLhs eqCons row col t Hj Hi H. cbv zeta. rewrite MultiAggregation_count by assumption. lia. Qed.
Print Assumptions C08_MultiAggregation_basis_count.

Theorem C08_DoubletonEquation_basis_count : forall c j k i ms jf jo ko aij slo sup loj col t n m, (j < n)%nat -> (k < n)%nat -> j <> k ->
  (is_basic (gcs t k) = false -> is_basic (gcs t j) = true) ->
  let t' := exec_DoubletonEquation c j k i ms jf jo ko aij slo sup loj col t in
  (cntb (scs t') n + cntb (srs t') m = cntb (scs t) n + cntb (srs t) m)%nat.
Proof. exact DoubletonEquation_count. Qed.
Print Assumptions C08_DoubletonEquation_basis_count.

(* TightenBoundsPS touches only the column statuses ... *)
Theorem C08_TightenBounds_keeps_values : forall c j ou ol t,
  let t' := exec_TightenBounds c j ou ol t in sx t' = sx t /\ sy t' = sy t /\ ss t' = ss t /\ sr t' = sr t /\ srs t' = srs t.
Proof. exact TightenBounds_values. Qed.
Print Assumptions C08_TightenBounds_keeps_values.

(* ... and does NOT preserve the basis count in general: a non-basic column sitting at a tightened bound that is strictly
   inside its original bounds becomes BASIC without any row or column leaving the basis (witness: 1 column, 1 row) *)
Theorem C08_TightenBounds_basis_count_refuted :
  exists c j ou ol t, (cntb (scs t) 1 + cntb (srs t) 1 = 1)%nat /\
    let t' := exec_TightenBounds c j ou ol t in (cntb (scs t') 1 + cntb (srs t') 1 = 2)%nat.
Proof. exact TightenBounds_count_refuted. Qed.
Print Assumptions C08_TightenBounds_basis_count_refuted.

(* AggregationPS: exec_Aggregation_old leaves the row dual as it is, exec_Aggregation recomputes it *)

(* exec_Aggregation_old: from an optimal basic solution of the reduced LP satisfying all five invariants the step produces duals that
   violate r = c - A^T y for the LP before the aggregation *)
Theorem C08_aggregation_dual_refuted :
  prim_ident agg_P' agg_t /\ dual_ident agg_P' agg_t /\ prim_feas agg_P' agg_t /\ dual_signs agg_P' agg_t /\ basis_count agg_P' agg_t /\
  exists t', agg_old = Some t' /\ prim_ident agg_P t' /\ ~ dual_ident agg_P t'.
Proof. exact aggregation_dual_refuted_old_rule. Qed.
Print Assumptions C08_aggregation_dual_refuted.

(* exec_Aggregation on the same witness: all invariants hold, hence (C08_invariants_give_optimality) the result is optimal *)
Theorem C08_aggregation_fixed_on_witness :
  exists t', agg_new = Some t' /\ prim_ident agg_P t' /\ dual_ident agg_P t' /\ prim_feas agg_P t' /\ dual_signs agg_P t' /\ basis_count agg_P t'.
Proof. exact aggregation_fixed_on_witness. Qed.
Print Assumptions C08_aggregation_fixed_on_witness.

(* the algebra of the recomputed row dual, for all coefficients *)
Theorem C08_aggregation_dual_update_correct : forall aij aik Rj Rk, ~ aij == 0 -> ~ aik == 0 ->
  let r'k := Rk + (- (aik / aij)) * Rj in
  let yi := Rj / aij + r'k / aik in
  Rk - aik * yi == 0 /\ Rj - aij * yi == - (aij / aik) * r'k.
Proof. exact aggregation_dual_update. Qed.
Print Assumptions C08_aggregation_dual_update_correct.

Theorem C08_aggregation_dual_sign_correct : forall aij aik r'k, ~ aij == 0 -> ~ aik == 0 ->
  let coef := - (aik / aij) in
  let rj := - (aij / aik) * r'k in
  (0 < coef -> (0 <= r'k -> 0 <= rj) /\ (r'k <= 0 -> rj <= 0)) /\
  (coef < 0 -> (0 <= r'k -> rj <= 0) /\ (r'k <= 0 -> 0 <= rj)).
Proof. exact aggregation_dual_sign. Qed.
Print Assumptions C08_aggregation_dual_sign_correct.

(* MultiAggregationPS: exec_MultiAggregation_old sets the slack of the aggregated row to 0 and does not shift the slacks
   of the other rows containing x_j, exec_MultiAggregation does *)
Theorem C08_multiaggregation_slack_refuted :
  prim_ident magg_P' magg_t /\ dual_ident magg_P' magg_t /\ prim_feas magg_P' magg_t /\ dual_signs magg_P' magg_t /\ basis_count magg_P' magg_t /\
  dual_ident magg_P magg_old /\ ~ prim_ident magg_P magg_old.
Proof. exact multiaggregation_slack_refuted_old_rule. Qed.
Print Assumptions C08_multiaggregation_slack_refuted.

Theorem C08_multiaggregation_fixed_on_witness :
  prim_ident magg_P magg_new /\ dual_ident magg_P magg_new /\ prim_feas magg_P magg_new /\ dual_signs magg_P magg_new /\ basis_count magg_P magg_new.
Proof. exact multiaggregation_fixed_on_witness. Qed.
Print Assumptions C08_multiaggregation_fixed_on_witness.

(* non-vacuity: concrete LPs and optimal basic solutions of their reductions that satisfy the hypotheses; the conclusions
   are re-checked by computation *)
Definition X := exact_cmps (inject_Z (10 ^ 100)).

(* fixed column 0 (swap with the last column): min 3 x0 + x1, x0 = 2, x1 in [0,4], x0 + x1 >= 3 *)
Definition ex_fv : lp := {| maximize := false; offset := 0; cols := [mkcol 3 (Some 2) (Some 2); mkcol 1 (Some 0) (Some 4)];
                            rows := [mkrow (Some 3) [1; 1] None] |}.
Definition ex_fv_t : st := mkst [1; 0] [1] [1] [0; 0] [BASIC; UNDEFINED] [ON_LOWER].
Example C08_ex_FixVariable :
  wf_lp ex_fv /\ fix_justified ex_fv 0 2 /\ all_inv_b (red_FixVariable ex_fv 0 2) ex_fv_t = true /\
  all_inv_b ex_fv (exec_FixVariable X 0 1 2 3 2 2 true (sp_col ex_fv 0) ex_fv_t) = true /\
  optimal ex_fv [2; 1].
Proof.
  assert (W : wf_lp ex_fv) by (intros i Hi; unfold nrows in Hi; simpl in Hi; destruct i; [reflexivity|lia]).
  split; [exact W|]. split; [left; exists 2, 2; repeat split; reflexivity|].
  split; [vm_compute; reflexivity|]. split; [vm_compute; reflexivity|].
  assert (Hall : all_inv_b ex_fv (exec_FixVariable X 0 1 2 3 2 2 true (sp_col ex_fv 0) ex_fv_t) = true) by (vm_compute; reflexivity).
  apply all_inv_b_ok in Hall. destruct Hall as (A & B & C & D & _).
  assert (L1 : (ncols ex_fv <= length (sx (exec_FixVariable X 0 1 2 3 2 2 true (sp_col ex_fv 0) ex_fv_t)))%nat) by (vm_compute; lia).
  assert (L2 : (nrows ex_fv <= length (sy (exec_FixVariable X 0 1 2 3 2 2 true (sp_col ex_fv 0) ex_fv_t)))%nat) by (vm_compute; lia).
  destruct (C08_invariants_give_optimality ex_fv _ eq_refl W L1 L2 A B C D) as [_ O].
  vm_compute firstn in O. exact O.
Qed.

(* free row 0 (swap with the last row): min x0, x0 in [0,4], free row, x0 >= 1 *)
Definition ex_fc : lp := {| maximize := false; offset := 0; cols := [mkcol 1 (Some 0) (Some 4)];
                            rows := [mkrow None [1] None; mkrow (Some 1) [1] None] |}.
Definition ex_fc_t : st := mkst [1] [1; 0] [1; 0] [0] [BASIC] [ON_LOWER; UNDEFINED].
Example C08_ex_FreeConstraint :
  all_inv_b (red_remove_row ex_fc 0) ex_fc_t = true /\ all_inv_b ex_fc (exec_FreeConstraint 0 1 (sp_row ex_fc 0) 0 ex_fc_t) = true.
Proof. split; vm_compute; reflexivity. Qed.

Definition ex_ec : lp := {| maximize := false; offset := 0; cols := [mkcol 1 (Some 0) (Some 4)];
                            rows := [mkrow None [0] (Some 1); mkrow (Some 1) [1] None] |}.
Example C08_ex_EmptyConstraint :
  empty_row ex_ec 0 /\ all_inv_b (red_remove_row ex_ec 0) ex_fc_t = true /\ all_inv_b ex_ec (exec_EmptyConstraint 0 1 0 ex_fc_t) = true.
Proof. split; [intros [|[|j]]; reflexivity|]. split; vm_compute; reflexivity. Qed.

(* dominated column fixed at its upper bound: min -x0, x0 in [0,4], x0 >= 1 *)
Definition ex_fb : lp := {| maximize := false; offset := 0; cols := [mkcol (-1) (Some 0) (Some 4)]; rows := [mkrow (Some 1) [1] None] |}.
Definition ex_fb_t : st := mkst [4] [0] [4] [-1] [FIXED] [BASIC].
Example C08_ex_FixBounds :
  dominated_up ex_fb 0 4 /\ all_inv_b (red_FixBounds ex_fb 0 4) ex_fb_t = true /\ all_inv_b ex_fb (exec_FixBounds 0 ON_UPPER ex_fb_t) = true.
Proof.
  split; [|split; vm_compute; reflexivity].
  split; [reflexivity|]. split; [reflexivity|]. intros i Hi; unfold nrows in Hi; simpl in Hi; destruct i; [|lia].
  split; [reflexivity|]. intros H. vm_compute in H. discriminate.
Qed.

(* row objective 2 on the row x0 >= 1: slack column with cost 2 in (-inf,-1], row x0 + slack = 0 *)
Definition ex_ro : lp := {| maximize := false; offset := 0; cols := [mkcol 1 (Some 0) (Some 4)]; rows := [mkrow (Some 1) [1] None] |}.
Definition ex_ro_t : st := mkst [4; -4] [2] [0] [-1; 0] [ON_UPPER; BASIC] [FIXED].
Example C08_ex_RowObj :
  all_inv_b (red_RowObj ex_ro 0 2) ex_ro_t = true /\
  let t' := exec_RowObj 0 1 ex_ro_t in
  (prim_ident_b ex_ro t' && dual_ident_b ex_ro t' && prim_feas_b ex_ro t' && basis_count_b ex_ro t')%bool = true.
Proof. split; vm_compute; reflexivity. Qed.
