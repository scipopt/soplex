(* C04 - Every reported basis is valid, regular, consistent across queries and reusable.
   Descriptor logic.  Each theorem is closed by a lemma of BasisModel_Proofs.v or BasisChange_Proofs.v or a short
   derivation from them (the refutations by a computed witness); Examples show that hypotheses are satisfiable.
   Regularity of the basis matrix and warm-start equality are validated per run by checks/C04.py (not theorems). *)
From Coq Require Import QArith Bool List ZArith.
From SV Require Import BasisModel BasisModel_Proofs BasisChangeModel BasisChange_Proofs.
Import ListNotations.
Local Open Scope nat_scope.

(* loadDesc turns every descriptor of the right dimensions into a valid one (repair rules + fall-back to the
   initial slack basis) ... *)
Theorem C04_loadDesc_valid : forall lp d,
  List.length (d_rows d) = nRows lp -> List.length (d_cols d) = nCols lp ->
  isDescValid lp (loadDesc lp d) = true.
Proof. exact loadDesc_valid. Qed.
Print Assumptions C04_loadDesc_valid.

(* ... is idempotent ... *)
Theorem C04_loadDesc_idem : forall lp d, loadDesc lp (loadDesc lp d) = loadDesc lp d.
Proof. exact loadDesc_idem. Qed.
Print Assumptions C04_loadDesc_idem.

(* ... and takes the same decision in row representation (P_* entries = nCols) as in column representation
   (D_* entries = nRows). *)
Theorem C04_loadDesc_representation_independent : forall lp d,
  List.length (d_rows d) = nRows lp -> List.length (d_cols d) = nCols lp ->
  loadDesc_rowrep lp d = loadDesc lp d.
Proof. exact rowrep_consistency. Qed.
Print Assumptions C04_loadDesc_representation_independent.

(* What isBasisValid accepts: exactly one basic variable per row, no UNDEFINED, no non-basic variable at an infinite
   bound, FIXED only with equal bounds. *)
Theorem C04_valid_basis_count : forall lp rows cols, isBasisValid lp rows cols = true ->
  List.length rows = nRows lp /\ List.length cols = nCols lp /\
  count_basic rows + count_basic cols = nRows lp /\
  Forall2 basis_entry_ok (b_rows lp) rows /\ Forall2 basis_entry_ok (b_cols lp) cols.
Proof. exact valid_basis_count. Qed.
Print Assumptions C04_valid_basis_count.

(* A valid descriptor is reported as a valid basis. *)
Theorem C04_valid_descriptor_reported_valid : forall lp d, isDescValid lp d = true ->
  isBasisValid lp (fst (getBasis d)) (snd (getBasis d)) = true.
Proof. exact descvalid_basisvalid. Qed.
Print Assumptions C04_valid_descriptor_reported_valid.

(* Whatever status arrays (of the right lengths) are passed to setBasis while the LP is in the solver: if the call
   returns (no UNDEFINED entry), the basis reported afterwards is valid. *)
Theorem C04_setBasis_reports_valid : forall lp rows cols d,
  List.length rows = nRows lp -> List.length cols = nCols lp ->
  setBasis lp rows cols = Some d ->
  isBasisValid lp (fst (getBasis d)) (snd (getBasis d)) = true.
Proof. exact setBasis_reports_valid. Qed.
Print Assumptions C04_setBasis_reports_valid.

(* Setting a valid basis (ZERO only on free variables) and reading it back returns it unchanged up to marking
   non-basic variables with equal bounds FIXED. *)
Theorem C04_set_get_roundtrip : forall lp rows cols,
  isBasisValid lp rows cols = true -> zero_only_free lp rows cols = true ->
  option_map getBasis (setBasis lp rows cols) = Some (mark_fixed lp rows cols).
Proof. exact set_get_roundtrip. Qed.
Print Assumptions C04_set_get_roundtrip.

(* basisRowStatus / basisColStatus, getBasis and getBasisInd describe the same basic set in all three storage
   branches of SoPlexBase (no basis; arrays outside the solver; descriptor in the solver). *)
Theorem C04_queries_agree : forall lp st, store_wf lp st ->
  (forall i, i < nRows lp -> sp_rowStatus lp st i = nth i (fst (sp_getBasis lp st)) UNDEFINED) /\
  (forall j, j < nCols lp -> sp_colStatus lp st j = nth j (snd (sp_getBasis lp st)) UNDEFINED) /\
  sp_getBasisInd lp st = ind_of (fst (sp_getBasis lp st)) (snd (sp_getBasis lp st)).
Proof. exact queries_agree. Qed.
Print Assumptions C04_queries_agree.

Theorem C04_basis_index_count : forall rows cols,
  List.length (ind_of rows cols) = count_basic rows + count_basic cols.
Proof. exact ind_of_length. Qed.
Print Assumptions C04_basis_index_count.

(* Refutations on the faithful model (each witness is replayed on the implementation by checks/C04.py) *)

Definition ex_lp : blp :=
  mkBlp [mkVar None (Some 10%Q) 0%Q; mkVar (Some 2%Q) (Some 8%Q) 0%Q]
        [mkVar (Some 0%Q) (Some 4%Q) (-1)%Q; mkVar None (Some 5%Q) 2%Q; mkVar None None 0%Q].

(* SoPlexBase::setBasis stores the arrays unvalidated when the LP is held outside the solver: hasBasis() is true
   although the reported basis has three basic variables for two rows. *)
Theorem C04_hasBasis_valid_outside_refuted : exists lp rows cols st,
  sp_setBasis lp false rows cols = Some st /\ sp_hasBasis st = true /\
  isBasisValid lp (fst (sp_getBasis lp st)) (snd (sp_getBasis lp st)) = false.
Proof.
  exists ex_lp, [ON_UPPER; ON_UPPER], [BASIC; BASIC; BASIC]. eexists. vm_compute. repeat split.
Qed.
Print Assumptions C04_hasBasis_valid_outside_refuted.

(* SPxSolverBase::isBasisValid compares the number of BASIC entries with dim(), which is the number of columns in
   row representation: there it rejects a valid basis and accepts one with nCols basic variables. *)
Theorem C04_isBasisValid_rowrep_refuted : exists lp rows cols rows' cols',
  isBasisValid lp rows cols = true /\ isBasisValid_rep true lp rows cols = false /\
  isBasisValid_rep true lp rows' cols' = true /\ count_basic rows' + count_basic cols' <> nRows lp.
Proof.
  exists ex_lp, [BASIC; ON_UPPER], [ON_LOWER; ON_UPPER; BASIC], [BASIC; BASIC], [ON_LOWER; ON_UPPER; BASIC].
  vm_compute. repeat split. discriminate.
Qed.
Print Assumptions C04_isBasisValid_rowrep_refuted.

(* Modifications that keep the basis: several rows / columns removed at once (removedRows / removedCols) *)
(* the in-place loop "stat[perm[i]] = stat[i] for increasing i", cut to the new size, leaves the survivors in order -
   for arrays of every length and every set of removed entries *)
Theorem C04_compaction_keeps_survivors_in_order : forall (A : Type) (d : A) arr mask,
  length arr = length mask -> compact d arr mask = keep arr mask.
Proof. exact @compact_is_keep. Qed.
Print Assumptions C04_compaction_keeps_survivors_in_order.

(* if the basis is kept after removing rows, the column statuses are untouched, the row statuses are the survivors' and
   the number of basic variables is the new number of rows *)
Theorem C04_removed_rows_keeps_a_basis : forall d mask d' m,
  length (d_rows d) = length mask -> count_dual (d_rows d) + count_dual (d_cols d) = m -> length (d_rows d) = m ->
  removed_rows d mask = Some d' ->
  d_rows d' = keep (d_rows d) mask /\ d_cols d' = d_cols d /\
  length (d_rows d') = survivors mask /\ count_dual (d_rows d') + count_dual (d_cols d') = survivors mask.
Proof.
  intros d mask d' m Hl Hc Hm H. destruct (removed_rows_count d mask d' Hl H) as (A & B & C & D).
  repeat split; try assumption. rewrite Hc, <- Hl, Hm, (Nat.add_comm m) in D. exact (proj1 (Nat.add_cancel_r _ _ _) D).
Qed.
Print Assumptions C04_removed_rows_keeps_a_basis.

Theorem C04_removed_cols_keeps_a_basis : forall d mask d' m,
  length (d_cols d) = length mask -> count_dual (d_rows d) + count_dual (d_cols d) = m ->
  removed_cols d mask = Some d' ->
  d_cols d' = keep (d_cols d) mask /\ d_rows d' = d_rows d /\
  length (d_cols d') = survivors mask /\ count_dual (d_rows d') + count_dual (d_cols d') = m.
Proof.
  intros d mask d' m Hl Hc H. destruct (removed_cols_count d mask d' Hl H) as (A & B & C & D).
  repeat split; try assumption. rewrite D. exact Hc.
Qed.
Print Assumptions C04_removed_cols_keeps_a_basis.

(* the loop has to run over the OLD number of entries: run to the new (shrunk) number it misses a survivor of the tail *)
Theorem C04_short_compaction_loop_refuted :
  compact_short D_UNDEFINED [D_ON_LOWER; D_ON_LOWER; P_ON_UPPER] [true; false; false] <> keep [D_ON_LOWER; D_ON_LOWER; P_ON_UPPER] [true; false; false].
Proof. exact short_loop_refuted. Qed.
Print Assumptions C04_short_compaction_loop_refuted.

(* rows / columns appended with a live basis (addedRows / addedCols): the new rows enter basic, the new columns non-basic,
   and a valid descriptor stays valid for the extended LP - for every LP, every valid descriptor and any number of new rows *)
Theorem C04_added_rows_keep_descriptor_valid : forall lp newrows d, isDescValid lp d = true ->
  isDescValid (mkBlp (b_rows lp ++ newrows) (b_cols lp)) (added_rows (mkBlp (b_rows lp ++ newrows) (b_cols lp)) d) = true.
Proof. exact added_rows_valid. Qed.
Print Assumptions C04_added_rows_keep_descriptor_valid.

Theorem C04_added_cols_keep_descriptor_valid : forall lp newcols d, isDescValid lp d = true ->
  isDescValid (mkBlp (b_rows lp) (b_cols lp ++ newcols)) (added_cols (mkBlp (b_rows lp) (b_cols lp ++ newcols)) d) = true.
Proof. exact added_cols_valid. Qed.
Print Assumptions C04_added_cols_keep_descriptor_valid.

(* Non-vacuity *)
Example C04_ex_removed_rows :
  removed_rows (mkDesc [D_ON_LOWER; P_ON_UPPER; D_ON_UPPER; P_ON_LOWER] [D_ON_LOWER; P_FREE]) [true; false; true; false]
    = Some (mkDesc [P_ON_UPPER; P_ON_LOWER] [D_ON_LOWER; P_FREE]) /\
  removed_rows (mkDesc [D_ON_LOWER; P_ON_UPPER] [D_ON_LOWER; P_FREE]) [false; true] = None /\
  removed_cols (mkDesc [D_ON_LOWER; P_ON_UPPER] [D_ON_LOWER; P_FREE]) [false; true] = Some (mkDesc [D_ON_LOWER; P_ON_UPPER] [D_ON_LOWER]).
Proof. vm_compute. repeat split. Qed.

Example C04_ex_valid_basis : isBasisValid ex_lp [BASIC; ON_UPPER] [ON_LOWER; ON_UPPER; BASIC] = true
  /\ zero_only_free ex_lp [BASIC; ON_UPPER] [ON_LOWER; ON_UPPER; BASIC] = true.
Proof. vm_compute. split; reflexivity. Qed.

Example C04_ex_repair :
  loadDesc ex_lp (mkDesc [D_FREE; P_FREE] [P_FREE; D_ON_BOTH; P_ON_LOWER]) = mkDesc [D_ON_LOWER; P_ON_LOWER] [P_ON_LOWER; D_ON_LOWER; P_FREE]
  /\ loadDesc ex_lp (mkDesc [P_FREE; P_FREE] [P_FREE; P_FREE; P_FREE]) = initialDesc ex_lp.
Proof. vm_compute. split; reflexivity. Qed.

Example C04_ex_wf_store : store_wf ex_lp (Inside (initialDesc ex_lp)) /\ store_wf ex_lp (Outside [BASIC; BASIC] [ON_LOWER; ON_UPPER; ZERO]).
Proof. vm_compute. repeat split. Qed.
