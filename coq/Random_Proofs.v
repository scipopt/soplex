(* C17 - lemmas about the generator model (RandomModel.v): the stream after a setSeed depends on the seed only; the
   members stay below 2^32 and every output is below 2^32 (rrun_inv: an invariant that setSeed establishes holds along
   every sequence of operations); the xorshift member never becomes zero; next(minimum, maximum) stays in range. *)
From Coq Require Import NArith ZArith QArith List Lia Lqa Znumtheory.
From SV Require Import RandomModel.
Import ListNotations.

Local Open Scope N_scope.

Lemma rrun_app r a b : rrun r (a ++ b) = let (r1, o1) := rrun r a in let (r2, o2) := rrun r1 b in (r2, o1 ++ o2).
Proof.
  revert r. induction a as [|o a IH]; intros r; simpl.
  - destruct (rrun r b); reflexivity.
  - destruct (rstep r o) as [r1 o1]. rewrite IH. destruct (rrun r1 a) as [r2 o2]. destruct (rrun r2 b) as [r3 o3].
    now rewrite app_assoc.
Qed.

Lemma reseed_forgets_history r1 r2 h1 h2 s ops :
  let (ra, _) := rrun r1 h1 in let (rb, _) := rrun r2 h2 in
  rrun ra (RSeed s :: ops) = rrun rb (RSeed s :: ops).
Proof. destruct (rrun r1 h1) as [ra oa], (rrun r2 h2) as [rb ob]. reflexivity. Qed.

Lemma stream_function_of_seed r1 r2 h1 h2 s ops :
  snd (rrun r1 (h1 ++ RSeed s :: ops)) = snd (rrun r1 h1) ++ snd (rrun (set_seed s) ops) /\
  fst (rrun r1 (h1 ++ RSeed s :: ops)) = fst (rrun r2 (h2 ++ RSeed s :: ops)).
Proof.
  rewrite !rrun_app. destruct (rrun r1 h1) as [ra oa], (rrun r2 h2) as [rb ob]. simpl.
  destruct (rrun (set_seed s) ops) as [rc oc]. simpl. split; reflexivity.
Qed.

Lemma lxor_lt a b n : a < 2 ^ n -> b < 2 ^ n -> N.lxor a b < 2 ^ n.
Proof.
  intros Ha Hb. destruct (N.eq_dec n 0) as [->|Hn]; [replace a with 0 by lia; replace b with 0 by lia; reflexivity|].
  assert (L : forall x, x < 2 ^ n -> N.log2 x < n)
    by (intros x Hx; destruct (N.eq_dec x 0) as [->|]; [cbn; lia | apply N.log2_lt_pow2; lia]).
  destruct (N.eq_dec (N.lxor a b) 0) as [->|E]; [apply N.neq_0_lt_0, N.pow_nonzero; discriminate|].
  apply N.log2_lt_pow2; [lia|]. eapply N.le_lt_trans; [apply N.log2_lxor|]. apply N.max_lub_lt; auto.
Qed.

Lemma shiftr_le x k : N.shiftr x k <= x.
Proof. rewrite N.shiftr_div_pow2. apply N.div_le_upper_bound; [apply N.pow_nonzero; discriminate|].
  pose proof (N.pow_nonzero 2 k ltac:(discriminate)). nia. Qed.

Lemma mod_M32_lt x : x mod M32 < M32.
Proof. apply N.mod_lt. discriminate. Qed.

Lemma xs_shl_lt x k : x < M32 -> N.lxor x (N.shiftl x k mod M32) < M32.
Proof. intros H. apply (lxor_lt _ _ 32); [exact H | apply mod_M32_lt]. Qed.

Lemma xs2_lt x : x < M32 -> xs2 x < M32.
Proof. intros H. apply (lxor_lt _ _ 32); [exact H | eapply N.le_lt_trans; [apply shiftr_le | exact H]]. Qed.

Lemma xorshift_lt x : x < M32 -> xorshift x < M32.
Proof. intros H. apply xs_shl_lt, xs2_lt, xs_shl_lt, H. Qed.

Lemma next_random_wf r : rng_wf r -> rng_wf (fst (next_random r)) /\ snd (next_random r) < M32.
Proof.
  intros (Hs & Hl & Hx & Hm & Hc). unfold next_random. cbn [fst snd]. unfold rng_wf. cbn [seedshift lin_seed xor_seed mwc_seed cst_seed].
  repeat split; try apply mod_M32_lt; try assumption.
  - now apply xorshift_lt.
  - rewrite N.shiftr_div_pow2. apply N.div_lt_upper_bound; [discriminate|].
    unfold M32 in *. change (2 ^ 32) with 4294967296. nia.
Qed.

Lemma at_least_one_lt v : v < M32 -> at_least_one v < M32.
Proof. unfold at_least_one. destruct (N.eqb v 0); [reflexivity|auto]. Qed.

(* the members as setSeed assigns them, before it advances the state once *)
Definition seed_state (s : N) : rng :=
  mkrng s (at_least_one ((123456789 + s) mod M32)) (at_least_one ((362436000 + s) mod M32))
        (at_least_one ((521288629 + s) mod M32)) ((7654321 + s) mod M32).

Lemma seed_state_wf s : s < M32 -> rng_wf (seed_state s).
Proof.
  intros H. unfold rng_wf. cbn [seed_state seedshift lin_seed xor_seed mwc_seed cst_seed].
  repeat split; try (apply at_least_one_lt); try apply mod_M32_lt; assumption.
Qed.

Lemma set_seed_wf s : s < M32 -> rng_wf (set_seed s).
Proof. intros H. apply (next_random_wf (seed_state s)), seed_state_wf, H. Qed.

(* an invariant I of next() that setSeed establishes for the seeds in K holds along every operation sequence with
   seeds in K; O holds of every output *)
Lemma rrun_inv (I : rng -> Prop) (O K : N -> Prop) :
  (forall r, I r -> I (fst (next_random r)) /\ O (snd (next_random r))) -> (forall s, K s -> I (set_seed s)) ->
  forall ops r, I r -> (forall s, In (RSeed s) ops -> K s) ->
  I (fst (rrun r ops)) /\ Forall O (snd (rrun r ops)).
Proof.
  intros Hn Hs. induction ops as [|o ops IH]; intros r W Hb; [split; [exact W|constructor]|]. cbn [rrun].
  assert (I (fst (rstep r o)) /\ Forall O (snd (rstep r o))) as [W1 O1].
  { destruct o as [s|]; cbn [rstep].
    - split; [apply Hs, Hb; left; reflexivity | constructor].
    - destruct (Hn r W) as [A B]. destruct (next_random r). split; [exact A | constructor; [exact B|constructor]]. }
  destruct (IH (fst (rstep r o)) W1 (fun s H => Hb s (or_intror H))) as [W2 O2].
  destruct (rstep r o) as [r1 o1]. cbn [fst snd] in *. destruct (rrun r1 ops) as [r2 o2].
  split; [exact W2 | apply Forall_app; split; assumption].
Qed.

Lemma rrun_wf ops : forall r, rng_wf r -> (forall s, In (RSeed s) ops -> s < M32) ->
  rng_wf (fst (rrun r ops)) /\ Forall (fun v => v < M32) (snd (rrun r ops)).
Proof. exact (rrun_inv rng_wf (fun v => v < M32) (fun s => s < M32) next_random_wf set_seed_wf ops). Qed.

Lemma rrun_outputs_lt ops r : Forall (fun v => v < M32) (snd (rrun r ops)).
Proof.
  apply (rrun_inv (fun _ => True) (fun v => v < M32) (fun _ => True)); auto.
  intros r0 _. split; [exact I | apply mod_M32_lt].
Qed.

Lemma odd_multiple_mod x k : x < M32 -> x = (x * 2 ^ k) mod M32 -> Z.gcd (Z.of_N (2 ^ k - 1)) (Z.of_N M32) = 1%Z -> 1 <= k -> x = 0.
Proof.
  intros Hx E G Hk.
  assert (P1 : 1 <= 2 ^ k) by (pose proof (N.pow_nonzero 2 k ltac:(discriminate)); lia).
  assert (D : (Z.of_N M32 | Z.of_N (2 ^ k - 1) * Z.of_N x)%Z).
  { pose proof (N.div_mod (x * 2 ^ k) M32 ltac:(discriminate)) as DM. rewrite <- E in DM.
    exists (Z.of_N ((x * 2 ^ k) / M32)). nia. }
  apply Z.gauss in D; [|rewrite Z.gcd_comm; exact G].
  destruct D as [q Hq]. unfold M32 in *. destruct (Z.eq_dec q 0) as [->|Hq0]; [lia|]. nia.
Qed.

Lemma xs_shl_nonzero x k : x <> 0 -> Z.gcd (Z.of_N (2 ^ k - 1)) (Z.of_N M32) = 1%Z -> 1 <= k ->
  N.lxor x (N.shiftl x k mod M32) <> 0.
Proof.
  intros Hn G Hk E. apply N.lxor_eq in E. assert (Hx : x < M32) by (rewrite E; apply mod_M32_lt).
  rewrite N.shiftl_mul_pow2 in E. apply Hn. now apply (odd_multiple_mod x k).
Qed.

Lemma xs2_nonzero x : x <> 0 -> xs2 x <> 0.
Proof.
  intros Hn E. unfold xs2 in E. apply N.lxor_eq in E. rewrite N.shiftr_div_pow2 in E.
  apply (N.lt_irrefl x). rewrite E at 1. apply N.div_lt; [lia | reflexivity].
Qed.

Lemma xorshift_nonzero x : x <> 0 -> xorshift x <> 0.
Proof.
  intros Hn. apply xs_shl_nonzero; [| vm_compute; reflexivity | lia].
  apply xs2_nonzero, xs_shl_nonzero; [exact Hn | vm_compute; reflexivity | lia].
Qed.

Lemma at_least_one_nonzero v : at_least_one v <> 0.
Proof. unfold at_least_one. destruct (N.eqb_spec v 0); [discriminate|assumption]. Qed.

Lemma xor_state_nonzero ops r : xor_seed r <> 0 -> xor_seed (fst (rrun r ops)) <> 0.
Proof.
  intros Hx. apply (rrun_inv (fun r => xor_seed r <> 0) (fun _ => True) (fun _ => True)); auto.
  - intros r0 N0. split; [now apply xorshift_nonzero | exact I].
  - intros s _. apply xorshift_nonzero, at_least_one_nonzero.
Qed.

Local Open Scope Q_scope.

Definition qval (v : N) : Q := Z.of_N v # 4294967295.       (* numerator / UINT32_MAX *)

Lemma qval_unit v : (v < M32)%N -> 0 <= qval v /\ qval v <= 1.
Proof.
  intros H. unfold qval, Qle; simpl. unfold M32 in H. split; lia.
Qed.

(* next(minimum, maximum) = minimum * (1 - r) + maximum * r *)
Definition qnext (mn mx r : Q) : Q := mn * (1 - r) + mx * r.

Lemma qnext_in_range mn mx r : mn <= mx -> 0 <= r -> r <= 1 -> mn <= qnext mn mx r /\ qnext mn mx r <= mx.
Proof. intros H H0 H1. unfold qnext. split; nra. Qed.
