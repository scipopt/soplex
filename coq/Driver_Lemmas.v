(* Tools for reasoning about the solve driver of DriverModel.v.  First the equations of its record updates: what each field
   reads after each update, one lemma per field and update, each by conversion, also collected as the rewrite database [drv]
   for states that are kept as chains of updates.  The proofs in Driver_Proofs.v and Driver_Honest.v do not rewrite with them:
   they destruct the state and evaluate ([sdestr], [drv_eval] below).  Then the state [opt_pre] that _optimize hands to the
   first pass, with the equation [optimize_eq]. *)
From Coq Require Import ZArith List Bool.
From SV Require Import DriverModel.
Import ListNotations.
Local Open Scope Z_scope.

Lemma simp_on_emit c a b d e s : simp_on (emit c a b d e s) = simp_on s.
Proof. reflexivity. Qed.
Lemma scaler_on_emit c a b d e s : scaler_on (emit c a b d e s) = scaler_on s.
Proof. reflexivity. Qed.
Lemma loaded_emit c a b d e s : loaded (emit c a b d e s) = loaded s.
Proof. reflexivity. Qed.
Lemma scaled_emit c a b d e s : scaled (emit c a b d e s) = scaled s.
Proof. reflexivity. Qed.
Lemma sol_scaled_emit c a b d e s : sol_scaled (emit c a b d e s) = sol_scaled s.
Proof. reflexivity. Qed.
Lemma intl_emit c a b d e s : intl (emit c a b d e s) = intl s.
Proof. reflexivity. Qed.
Lemma has_basis_emit c a b d e s : has_basis (emit c a b d e s) = has_basis s.
Proof. reflexivity. Qed.
Lemma status_emit c a b d e s : status (emit c a b d e s) = status s.
Proof. reflexivity. Qed.
Lemma has_sol_emit c a b d e s : has_sol (emit c a b d e s) = has_sol s.
Proof. reflexivity. Qed.
Lemma has_ray_emit c a b d e s : has_ray (emit c a b d e s) = has_ray s.
Proof. reflexivity. Qed.
Lemma has_farkas_emit c a b d e s : has_farkas (emit c a b d e s) = has_farkas s.
Proof. reflexivity. Qed.
Lemma apply_pol_emit c a b d e s : apply_pol (emit c a b d e s) = apply_pol s.
Proof. reflexivity. Qed.
Lemma objlim_en_emit c a b d e s : objlim_en (emit c a b d e s) = objlim_en s.
Proof. reflexivity. Qed.
Lemma opt_calls_emit c a b d e s : opt_calls (emit c a b d e s) = opt_calls s.
Proof. reflexivity. Qed.
Lemma unsc_calls_emit c a b d e s : unsc_calls (emit c a b d e s) = unsc_calls s.
Proof. reflexivity. Qed.
Lemma sol_space_emit c a b d e s : sol_space (emit c a b d e s) = sol_space s.
Proof. reflexivity. Qed.
Lemma sol_ok_emit c a b d e s : sol_ok (emit c a b d e s) = sol_ok s.
Proof. reflexivity. Qed.
Lemma frame_emit c a b d e s : frame (emit c a b d e s) = frame s.
Proof. reflexivity. Qed.
Lemma trace_emit c a b d e s : trace (emit c a b d e s) = (c, a, b, d, e) :: trace s.
Proof. reflexivity. Qed.
Lemma simp_on_set_tools sm sc s : simp_on (set_tools sm sc s) = sm.
Proof. reflexivity. Qed.
Lemma scaler_on_set_tools sm sc s : scaler_on (set_tools sm sc s) = sc.
Proof. reflexivity. Qed.
Lemma loaded_set_tools sm sc s : loaded (set_tools sm sc s) = loaded s.
Proof. reflexivity. Qed.
Lemma scaled_set_tools sm sc s : scaled (set_tools sm sc s) = scaled s.
Proof. reflexivity. Qed.
Lemma sol_scaled_set_tools sm sc s : sol_scaled (set_tools sm sc s) = sol_scaled s.
Proof. reflexivity. Qed.
Lemma intl_set_tools sm sc s : intl (set_tools sm sc s) = intl s.
Proof. reflexivity. Qed.
Lemma has_basis_set_tools sm sc s : has_basis (set_tools sm sc s) = has_basis s.
Proof. reflexivity. Qed.
Lemma status_set_tools sm sc s : status (set_tools sm sc s) = status s.
Proof. reflexivity. Qed.
Lemma has_sol_set_tools sm sc s : has_sol (set_tools sm sc s) = has_sol s.
Proof. reflexivity. Qed.
Lemma has_ray_set_tools sm sc s : has_ray (set_tools sm sc s) = has_ray s.
Proof. reflexivity. Qed.
Lemma has_farkas_set_tools sm sc s : has_farkas (set_tools sm sc s) = has_farkas s.
Proof. reflexivity. Qed.
Lemma apply_pol_set_tools sm sc s : apply_pol (set_tools sm sc s) = apply_pol s.
Proof. reflexivity. Qed.
Lemma objlim_en_set_tools sm sc s : objlim_en (set_tools sm sc s) = objlim_en s.
Proof. reflexivity. Qed.
Lemma opt_calls_set_tools sm sc s : opt_calls (set_tools sm sc s) = opt_calls s.
Proof. reflexivity. Qed.
Lemma unsc_calls_set_tools sm sc s : unsc_calls (set_tools sm sc s) = unsc_calls s.
Proof. reflexivity. Qed.
Lemma sol_space_set_tools sm sc s : sol_space (set_tools sm sc s) = sol_space s.
Proof. reflexivity. Qed.
Lemma sol_ok_set_tools sm sc s : sol_ok (set_tools sm sc s) = sol_ok s.
Proof. reflexivity. Qed.
Lemma frame_set_tools sm sc s : frame (set_tools sm sc s) = frame s.
Proof. reflexivity. Qed.
Lemma trace_set_tools sm sc s : trace (set_tools sm sc s) = trace s.
Proof. reflexivity. Qed.
Lemma simp_on_set_lp ld sc ss il s : simp_on (set_lp ld sc ss il s) = simp_on s.
Proof. reflexivity. Qed.
Lemma scaler_on_set_lp ld sc ss il s : scaler_on (set_lp ld sc ss il s) = scaler_on s.
Proof. reflexivity. Qed.
Lemma loaded_set_lp ld sc ss il s : loaded (set_lp ld sc ss il s) = ld.
Proof. reflexivity. Qed.
Lemma scaled_set_lp ld sc ss il s : scaled (set_lp ld sc ss il s) = sc.
Proof. reflexivity. Qed.
Lemma sol_scaled_set_lp ld sc ss il s : sol_scaled (set_lp ld sc ss il s) = ss.
Proof. reflexivity. Qed.
Lemma intl_set_lp ld sc ss il s : intl (set_lp ld sc ss il s) = il.
Proof. reflexivity. Qed.
Lemma has_basis_set_lp ld sc ss il s : has_basis (set_lp ld sc ss il s) = has_basis s.
Proof. reflexivity. Qed.
Lemma status_set_lp ld sc ss il s : status (set_lp ld sc ss il s) = status s.
Proof. reflexivity. Qed.
Lemma has_sol_set_lp ld sc ss il s : has_sol (set_lp ld sc ss il s) = has_sol s.
Proof. reflexivity. Qed.
Lemma has_ray_set_lp ld sc ss il s : has_ray (set_lp ld sc ss il s) = has_ray s.
Proof. reflexivity. Qed.
Lemma has_farkas_set_lp ld sc ss il s : has_farkas (set_lp ld sc ss il s) = has_farkas s.
Proof. reflexivity. Qed.
Lemma apply_pol_set_lp ld sc ss il s : apply_pol (set_lp ld sc ss il s) = apply_pol s.
Proof. reflexivity. Qed.
Lemma objlim_en_set_lp ld sc ss il s : objlim_en (set_lp ld sc ss il s) = objlim_en s.
Proof. reflexivity. Qed.
Lemma opt_calls_set_lp ld sc ss il s : opt_calls (set_lp ld sc ss il s) = opt_calls s.
Proof. reflexivity. Qed.
Lemma unsc_calls_set_lp ld sc ss il s : unsc_calls (set_lp ld sc ss il s) = unsc_calls s.
Proof. reflexivity. Qed.
Lemma sol_space_set_lp ld sc ss il s : sol_space (set_lp ld sc ss il s) = sol_space s.
Proof. reflexivity. Qed.
Lemma sol_ok_set_lp ld sc ss il s : sol_ok (set_lp ld sc ss il s) = sol_ok s.
Proof. reflexivity. Qed.
Lemma frame_set_lp ld sc ss il s : frame (set_lp ld sc ss il s) = frame s.
Proof. reflexivity. Qed.
Lemma trace_set_lp ld sc ss il s : trace (set_lp ld sc ss il s) = trace s.
Proof. reflexivity. Qed.
Lemma simp_on_set_basis b s : simp_on (set_basis b s) = simp_on s.
Proof. reflexivity. Qed.
Lemma scaler_on_set_basis b s : scaler_on (set_basis b s) = scaler_on s.
Proof. reflexivity. Qed.
Lemma loaded_set_basis b s : loaded (set_basis b s) = loaded s.
Proof. reflexivity. Qed.
Lemma scaled_set_basis b s : scaled (set_basis b s) = scaled s.
Proof. reflexivity. Qed.
Lemma sol_scaled_set_basis b s : sol_scaled (set_basis b s) = sol_scaled s.
Proof. reflexivity. Qed.
Lemma intl_set_basis b s : intl (set_basis b s) = intl s.
Proof. reflexivity. Qed.
Lemma has_basis_set_basis b s : has_basis (set_basis b s) = b.
Proof. reflexivity. Qed.
Lemma status_set_basis b s : status (set_basis b s) = status s.
Proof. reflexivity. Qed.
Lemma has_sol_set_basis b s : has_sol (set_basis b s) = has_sol s.
Proof. reflexivity. Qed.
Lemma has_ray_set_basis b s : has_ray (set_basis b s) = has_ray s.
Proof. reflexivity. Qed.
Lemma has_farkas_set_basis b s : has_farkas (set_basis b s) = has_farkas s.
Proof. reflexivity. Qed.
Lemma apply_pol_set_basis b s : apply_pol (set_basis b s) = apply_pol s.
Proof. reflexivity. Qed.
Lemma objlim_en_set_basis b s : objlim_en (set_basis b s) = objlim_en s.
Proof. reflexivity. Qed.
Lemma opt_calls_set_basis b s : opt_calls (set_basis b s) = opt_calls s.
Proof. reflexivity. Qed.
Lemma unsc_calls_set_basis b s : unsc_calls (set_basis b s) = unsc_calls s.
Proof. reflexivity. Qed.
Lemma sol_space_set_basis b s : sol_space (set_basis b s) = sol_space s.
Proof. reflexivity. Qed.
Lemma sol_ok_set_basis b s : sol_ok (set_basis b s) = sol_ok s.
Proof. reflexivity. Qed.
Lemma frame_set_basis b s : frame (set_basis b s) = frame s.
Proof. reflexivity. Qed.
Lemma trace_set_basis b s : trace (set_basis b s) = trace s.
Proof. reflexivity. Qed.
Lemma simp_on_set_status t s : simp_on (set_status t s) = simp_on s.
Proof. reflexivity. Qed.
Lemma scaler_on_set_status t s : scaler_on (set_status t s) = scaler_on s.
Proof. reflexivity. Qed.
Lemma loaded_set_status t s : loaded (set_status t s) = loaded s.
Proof. reflexivity. Qed.
Lemma scaled_set_status t s : scaled (set_status t s) = scaled s.
Proof. reflexivity. Qed.
Lemma sol_scaled_set_status t s : sol_scaled (set_status t s) = sol_scaled s.
Proof. reflexivity. Qed.
Lemma intl_set_status t s : intl (set_status t s) = intl s.
Proof. reflexivity. Qed.
Lemma has_basis_set_status t s : has_basis (set_status t s) = has_basis s.
Proof. reflexivity. Qed.
Lemma status_set_status t s : status (set_status t s) = t.
Proof. reflexivity. Qed.
Lemma has_sol_set_status t s : has_sol (set_status t s) = has_sol s.
Proof. reflexivity. Qed.
Lemma has_ray_set_status t s : has_ray (set_status t s) = has_ray s.
Proof. reflexivity. Qed.
Lemma has_farkas_set_status t s : has_farkas (set_status t s) = has_farkas s.
Proof. reflexivity. Qed.
Lemma apply_pol_set_status t s : apply_pol (set_status t s) = apply_pol s.
Proof. reflexivity. Qed.
Lemma objlim_en_set_status t s : objlim_en (set_status t s) = objlim_en s.
Proof. reflexivity. Qed.
Lemma opt_calls_set_status t s : opt_calls (set_status t s) = opt_calls s.
Proof. reflexivity. Qed.
Lemma unsc_calls_set_status t s : unsc_calls (set_status t s) = unsc_calls s.
Proof. reflexivity. Qed.
Lemma sol_space_set_status t s : sol_space (set_status t s) = sol_space s.
Proof. reflexivity. Qed.
Lemma sol_ok_set_status t s : sol_ok (set_status t s) = sol_ok s.
Proof. reflexivity. Qed.
Lemma frame_set_status t s : frame (set_status t s) = frame s.
Proof. reflexivity. Qed.
Lemma trace_set_status t s : trace (set_status t s) = trace s.
Proof. reflexivity. Qed.
Lemma simp_on_set_sol hs hr hf sp ok s : simp_on (set_sol hs hr hf sp ok s) = simp_on s.
Proof. reflexivity. Qed.
Lemma scaler_on_set_sol hs hr hf sp ok s : scaler_on (set_sol hs hr hf sp ok s) = scaler_on s.
Proof. reflexivity. Qed.
Lemma loaded_set_sol hs hr hf sp ok s : loaded (set_sol hs hr hf sp ok s) = loaded s.
Proof. reflexivity. Qed.
Lemma scaled_set_sol hs hr hf sp ok s : scaled (set_sol hs hr hf sp ok s) = scaled s.
Proof. reflexivity. Qed.
Lemma sol_scaled_set_sol hs hr hf sp ok s : sol_scaled (set_sol hs hr hf sp ok s) = sol_scaled s.
Proof. reflexivity. Qed.
Lemma intl_set_sol hs hr hf sp ok s : intl (set_sol hs hr hf sp ok s) = intl s.
Proof. reflexivity. Qed.
Lemma has_basis_set_sol hs hr hf sp ok s : has_basis (set_sol hs hr hf sp ok s) = has_basis s.
Proof. reflexivity. Qed.
Lemma status_set_sol hs hr hf sp ok s : status (set_sol hs hr hf sp ok s) = status s.
Proof. reflexivity. Qed.
Lemma has_sol_set_sol hs hr hf sp ok s : has_sol (set_sol hs hr hf sp ok s) = hs.
Proof. reflexivity. Qed.
Lemma has_ray_set_sol hs hr hf sp ok s : has_ray (set_sol hs hr hf sp ok s) = hr.
Proof. reflexivity. Qed.
Lemma has_farkas_set_sol hs hr hf sp ok s : has_farkas (set_sol hs hr hf sp ok s) = hf.
Proof. reflexivity. Qed.
Lemma apply_pol_set_sol hs hr hf sp ok s : apply_pol (set_sol hs hr hf sp ok s) = apply_pol s.
Proof. reflexivity. Qed.
Lemma objlim_en_set_sol hs hr hf sp ok s : objlim_en (set_sol hs hr hf sp ok s) = objlim_en s.
Proof. reflexivity. Qed.
Lemma opt_calls_set_sol hs hr hf sp ok s : opt_calls (set_sol hs hr hf sp ok s) = opt_calls s.
Proof. reflexivity. Qed.
Lemma unsc_calls_set_sol hs hr hf sp ok s : unsc_calls (set_sol hs hr hf sp ok s) = unsc_calls s.
Proof. reflexivity. Qed.
Lemma sol_space_set_sol hs hr hf sp ok s : sol_space (set_sol hs hr hf sp ok s) = sp.
Proof. reflexivity. Qed.
Lemma sol_ok_set_sol hs hr hf sp ok s : sol_ok (set_sol hs hr hf sp ok s) = ok.
Proof. reflexivity. Qed.
Lemma frame_set_sol hs hr hf sp ok s : frame (set_sol hs hr hf sp ok s) = frame s.
Proof. reflexivity. Qed.
Lemma trace_set_sol hs hr hf sp ok s : trace (set_sol hs hr hf sp ok s) = trace s.
Proof. reflexivity. Qed.
Lemma simp_on_set_flags ap ol s : simp_on (set_flags ap ol s) = simp_on s.
Proof. reflexivity. Qed.
Lemma scaler_on_set_flags ap ol s : scaler_on (set_flags ap ol s) = scaler_on s.
Proof. reflexivity. Qed.
Lemma loaded_set_flags ap ol s : loaded (set_flags ap ol s) = loaded s.
Proof. reflexivity. Qed.
Lemma scaled_set_flags ap ol s : scaled (set_flags ap ol s) = scaled s.
Proof. reflexivity. Qed.
Lemma sol_scaled_set_flags ap ol s : sol_scaled (set_flags ap ol s) = sol_scaled s.
Proof. reflexivity. Qed.
Lemma intl_set_flags ap ol s : intl (set_flags ap ol s) = intl s.
Proof. reflexivity. Qed.
Lemma has_basis_set_flags ap ol s : has_basis (set_flags ap ol s) = has_basis s.
Proof. reflexivity. Qed.
Lemma status_set_flags ap ol s : status (set_flags ap ol s) = status s.
Proof. reflexivity. Qed.
Lemma has_sol_set_flags ap ol s : has_sol (set_flags ap ol s) = has_sol s.
Proof. reflexivity. Qed.
Lemma has_ray_set_flags ap ol s : has_ray (set_flags ap ol s) = has_ray s.
Proof. reflexivity. Qed.
Lemma has_farkas_set_flags ap ol s : has_farkas (set_flags ap ol s) = has_farkas s.
Proof. reflexivity. Qed.
Lemma apply_pol_set_flags ap ol s : apply_pol (set_flags ap ol s) = ap.
Proof. reflexivity. Qed.
Lemma objlim_en_set_flags ap ol s : objlim_en (set_flags ap ol s) = ol.
Proof. reflexivity. Qed.
Lemma opt_calls_set_flags ap ol s : opt_calls (set_flags ap ol s) = opt_calls s.
Proof. reflexivity. Qed.
Lemma unsc_calls_set_flags ap ol s : unsc_calls (set_flags ap ol s) = unsc_calls s.
Proof. reflexivity. Qed.
Lemma sol_space_set_flags ap ol s : sol_space (set_flags ap ol s) = sol_space s.
Proof. reflexivity. Qed.
Lemma sol_ok_set_flags ap ol s : sol_ok (set_flags ap ol s) = sol_ok s.
Proof. reflexivity. Qed.
Lemma frame_set_flags ap ol s : frame (set_flags ap ol s) = frame s.
Proof. reflexivity. Qed.
Lemma trace_set_flags ap ol s : trace (set_flags ap ol s) = trace s.
Proof. reflexivity. Qed.
Lemma simp_on_set_counts oc uc fr s : simp_on (set_counts oc uc fr s) = simp_on s.
Proof. reflexivity. Qed.
Lemma scaler_on_set_counts oc uc fr s : scaler_on (set_counts oc uc fr s) = scaler_on s.
Proof. reflexivity. Qed.
Lemma loaded_set_counts oc uc fr s : loaded (set_counts oc uc fr s) = loaded s.
Proof. reflexivity. Qed.
Lemma scaled_set_counts oc uc fr s : scaled (set_counts oc uc fr s) = scaled s.
Proof. reflexivity. Qed.
Lemma sol_scaled_set_counts oc uc fr s : sol_scaled (set_counts oc uc fr s) = sol_scaled s.
Proof. reflexivity. Qed.
Lemma intl_set_counts oc uc fr s : intl (set_counts oc uc fr s) = intl s.
Proof. reflexivity. Qed.
Lemma has_basis_set_counts oc uc fr s : has_basis (set_counts oc uc fr s) = has_basis s.
Proof. reflexivity. Qed.
Lemma status_set_counts oc uc fr s : status (set_counts oc uc fr s) = status s.
Proof. reflexivity. Qed.
Lemma has_sol_set_counts oc uc fr s : has_sol (set_counts oc uc fr s) = has_sol s.
Proof. reflexivity. Qed.
Lemma has_ray_set_counts oc uc fr s : has_ray (set_counts oc uc fr s) = has_ray s.
Proof. reflexivity. Qed.
Lemma has_farkas_set_counts oc uc fr s : has_farkas (set_counts oc uc fr s) = has_farkas s.
Proof. reflexivity. Qed.
Lemma apply_pol_set_counts oc uc fr s : apply_pol (set_counts oc uc fr s) = apply_pol s.
Proof. reflexivity. Qed.
Lemma objlim_en_set_counts oc uc fr s : objlim_en (set_counts oc uc fr s) = objlim_en s.
Proof. reflexivity. Qed.
Lemma opt_calls_set_counts oc uc fr s : opt_calls (set_counts oc uc fr s) = oc.
Proof. reflexivity. Qed.
Lemma unsc_calls_set_counts oc uc fr s : unsc_calls (set_counts oc uc fr s) = uc.
Proof. reflexivity. Qed.
Lemma sol_space_set_counts oc uc fr s : sol_space (set_counts oc uc fr s) = sol_space s.
Proof. reflexivity. Qed.
Lemma sol_ok_set_counts oc uc fr s : sol_ok (set_counts oc uc fr s) = sol_ok s.
Proof. reflexivity. Qed.
Lemma frame_set_counts oc uc fr s : frame (set_counts oc uc fr s) = fr.
Proof. reflexivity. Qed.
Lemma trace_set_counts oc uc fr s : trace (set_counts oc uc fr s) = trace s.
Proof. reflexivity. Qed.

#[export] Hint Rewrite simp_on_emit scaler_on_emit loaded_emit scaled_emit sol_scaled_emit intl_emit has_basis_emit status_emit has_sol_emit has_ray_emit has_farkas_emit apply_pol_emit objlim_en_emit opt_calls_emit unsc_calls_emit sol_space_emit sol_ok_emit frame_emit trace_emit simp_on_set_tools scaler_on_set_tools loaded_set_tools scaled_set_tools sol_scaled_set_tools intl_set_tools has_basis_set_tools status_set_tools has_sol_set_tools has_ray_set_tools has_farkas_set_tools apply_pol_set_tools objlim_en_set_tools opt_calls_set_tools unsc_calls_set_tools sol_space_set_tools sol_ok_set_tools frame_set_tools trace_set_tools simp_on_set_lp scaler_on_set_lp loaded_set_lp scaled_set_lp sol_scaled_set_lp intl_set_lp has_basis_set_lp status_set_lp has_sol_set_lp has_ray_set_lp has_farkas_set_lp apply_pol_set_lp objlim_en_set_lp opt_calls_set_lp unsc_calls_set_lp sol_space_set_lp sol_ok_set_lp frame_set_lp trace_set_lp simp_on_set_basis scaler_on_set_basis loaded_set_basis scaled_set_basis sol_scaled_set_basis intl_set_basis has_basis_set_basis status_set_basis has_sol_set_basis has_ray_set_basis has_farkas_set_basis apply_pol_set_basis objlim_en_set_basis opt_calls_set_basis unsc_calls_set_basis sol_space_set_basis sol_ok_set_basis frame_set_basis trace_set_basis simp_on_set_status scaler_on_set_status loaded_set_status scaled_set_status sol_scaled_set_status intl_set_status has_basis_set_status status_set_status has_sol_set_status has_ray_set_status has_farkas_set_status apply_pol_set_status objlim_en_set_status opt_calls_set_status unsc_calls_set_status sol_space_set_status sol_ok_set_status frame_set_status trace_set_status simp_on_set_sol scaler_on_set_sol loaded_set_sol scaled_set_sol sol_scaled_set_sol intl_set_sol has_basis_set_sol status_set_sol has_sol_set_sol has_ray_set_sol has_farkas_set_sol apply_pol_set_sol objlim_en_set_sol opt_calls_set_sol unsc_calls_set_sol sol_space_set_sol sol_ok_set_sol frame_set_sol trace_set_sol simp_on_set_flags scaler_on_set_flags loaded_set_flags scaled_set_flags sol_scaled_set_flags intl_set_flags has_basis_set_flags status_set_flags has_sol_set_flags has_ray_set_flags has_farkas_set_flags apply_pol_set_flags objlim_en_set_flags opt_calls_set_flags unsc_calls_set_flags sol_space_set_flags sol_ok_set_flags frame_set_flags trace_set_flags simp_on_set_counts scaler_on_set_counts loaded_set_counts scaled_set_counts sol_scaled_set_counts intl_set_counts has_basis_set_counts status_set_counts has_sol_set_counts has_ray_set_counts has_farkas_set_counts apply_pol_set_counts objlim_en_set_counts opt_calls_set_counts unsc_calls_set_counts sol_space_set_counts sol_ok_set_counts frame_set_counts trace_set_counts : drv.

(* the state into its fields: simp_on, scaler_on, loaded, scaled, sol_scaled, intl, has_basis, status, has_sol, has_ray,
   has_farkas, apply_pol, objlim_en, opt_calls, unsc_calls, sol_space, sol_ok, frame, trace - the proofs use these names *)
Ltac sdestr s := destruct s as [so sc ld scd ss il hb stt hs hr hf ap oe oc uc sp ok fr tr].

(* [drv_eval f], on a destructed state: unfold the driver function [f] and evaluate its record updates in ONE conversion
   step.  Unfolding first and simplifying afterwards leaves an intermediate term whose nested lets, each used several
   times, make the kernel's conversion test at Qed exponential. *)
Ltac drv_eval f :=
  cbv beta iota zeta delta
    [f emit emit_if set_tools set_lp set_basis set_status set_sol set_flags set_counts
     load_real load_real_if unscale_lp unscale_lp_if
     simp_on scaler_on loaded scaled sol_scaled intl has_basis status has_sol has_ray has_farkas apply_pol objlim_en
     opt_calls unsc_calls sol_space sol_ok frame trace l_simp l_int l_pers].

(* the state _optimize hands to _preprocessAndSolveReal *)
Definition opt_pre (P : dparams) (oscaled : bool) (s0 : dstate) : dstate :=
  let s := set_sol false false false user_space false s0 in
  let s := set_counts (opt_calls s + 1) (unsc_calls s) O s in
  let s := emit 1 (zb (scaled s)) (zb (scaler_on s)) (zb (p_persist P)) (zb (has_basis s)) s in
  let s := emit 4 (opt_calls s) (unsc_calls s) (zb (loaded s)) (zb (scaled s)) s in
  let uns := scaled s && (negb (scaler_on s) || negb (p_persist P)) in
  let rsc := negb uns && p_persist P && scaler_on s && negb (scaled s) && reapply s in
  let s := unscale_lp_if uns (emit_if uns 2 0 0 0 0 s) in
  let s := set_lp (loaded s) (if rsc then oscaled else scaled s)
                  (if rsc then (if loaded s then oscaled else sol_scaled s) else sol_scaled s) (intl s) s in
  let s := emit_if rsc 3 (zb oscaled) 0 0 0 s in
  emit 5 (zb (loaded s)) (zb (scaled s)) (zb (scaler_on s)) (zb (has_basis s)) s.

(* stated with [has_basis s0]: the prelude does not touch the basis flag, and the destructed state keeps both sides small *)
Lemma optimize_eq P orc oscaled fuel s0 :
  optimize P orc oscaled fuel s0 = pas P orc fuel (negb (has_basis s0) && negb (p_objlim P)) (opt_pre P oscaled s0).
Proof. destruct s0; reflexivity. Qed.
