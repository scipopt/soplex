(* C12 - weak duality for the LP that buildDualProblem builds (DualModel.v): every feasible point of dual_of p bounds every
   feasible point of p.  Structure of the proof:  b.z  <=  (M^T x).z  =  x.(M z)  <=  c.x   (minimisation; reversed for
   maximisation), where M is the dual constraint matrix: one inequality per dual COLUMN (sign of z against its bounds, value
   of x or of the row activity against the primal bound / side that is the column's cost), the transposition identity,
   and one inequality per dual ROW (its sides against the sign of x).  From weak duality: a primal and a dual feasible
   point with equal values are both optimal (dual_equal_values_optimal). *)
From Coq Require Import ZArith QArith Bool List Lia Lqa.
From SV Require Import ListAux LPFileModel DualModel.
Import ListNotations.
Local Open Scope Q_scope.

Lemma dot_nil_r a : dot a [] = 0.
Proof. destruct a; reflexivity. Qed.

(* [dot] stops at the end of the shorter list, so the front part needs no [firstn] *)
Lemma dot_app a b : forall z, dot (a ++ b) z == dot a z + dot b (skipn (length a) z).
Proof.
  induction a as [|c a IH]; intros [|v z]; cbn [app length skipn dot]; rewrite ?dot_nil_r, ?IH; lra.
Qed.

Lemma dot_repeat v k : forall g, dot (repeat v k) g == v * dot (repeat 1 k) g.
Proof. induction k as [|k IH]; intros [|z g]; cbn; try lra. rewrite IH. lra. Qed.

Lemma dot_repeat0 k g : dot (repeat 0 k) g == 0.
Proof. rewrite dot_repeat. lra. Qed.

(* the order in which a dual value bounds a primal value: <= for a minimisation, >= for a maximisation *)
Definition sle (s : sense) (a b : Q) : Prop := match s with Min => a <= b | Max => b <= a end.

Global Instance sle_proper s : Proper (Qeq ==> Qeq ==> iff) (sle s).
Proof. intros a a' Ea b b' Eb. destruct s; cbn; rewrite Ea, Eb; reflexivity. Qed.

Lemma sle_refl s a : sle s a a.
Proof. destruct s; apply Qle_refl. Qed.
Lemma sle_add s a b c d : sle s a b -> sle s c d -> sle s (a + c) (b + d).
Proof. destruct s; cbn; intros; lra. Qed.
Lemma sle_trans s a b c : sle s a b -> sle s b c -> sle s a c.
Proof. destruct s; cbn; intros; lra. Qed.

Lemma qz_true q : qz q = true -> q == 0.
Proof. apply Qeq_bool_eq. Qed.

(* whatever value z the dual column [d] takes within its bounds, its term (cost * z) of the dual objective is on the
   good side of v * z *)
Definition bounds (s : sense) (d : dcol) (v : Q) : Prop :=
  forall z, col_ok (mk d) z -> sle s (c_obj (mk d) * z) (v * z).

Lemma bounds_nonneg s b v : sle s b v -> bounds s (nonneg b) v.
Proof. intros H z [Hz _]. destruct s; cbn in *; nra. Qed.
Lemma bounds_nonpos s b v : sle s v b -> bounds s (nonpos b) v.
Proof. intros H z [_ Hz]. destruct s; cbn in *; nra. Qed.
Lemma bounds_free s b v : b == v -> bounds s (b, None, None) v.
Proof. intros E z _. cbn. rewrite E. apply sle_refl. Qed.
Lemma bounds_fixed s v : bounds s (0, Some 0, Some 0) v.
Proof. intros z [Hl Hu]. cbn in *. assert (E : z == 0) by lra. rewrite E, !Qmult_0_r. apply sle_refl. Qed.

Lemma bounds_dot_le s ds vs : Forall2 (bounds s) ds vs -> forall z, Forall2 col_ok (map mk ds) z ->
  sle s (dot (map c_obj (map mk ds)) z) (dot vs z).
Proof.
  induction 1 as [|d v ds vs Hd _ IH]; intros z Hz; cbn [map] in *; inversion Hz; subst; cbn [dot].
  - apply sle_refl.
  - apply sle_add; auto.
Qed.

(* sides [lu] of a dual row whose activity a multiplies the primal value v, against the primal cost o *)
Definition sides (s : sense) (lu : option Q * option Q) (o v : Q) : Prop :=
  forall a, lo_ok (fst lu) a -> up_ok (snd lu) a -> sle s (a * v) (o * v).

Lemma sides_eq s o v : sides s (Some o, Some o) o v.
Proof. intros a Hl Hu. cbn in *. assert (E : a == o) by lra. rewrite E. apply sle_refl. Qed.
Lemma sides_lo s o v : sle s v 0 -> sides s (Some o, None) o v.
Proof. intros H a Hl _. destruct s; cbn in *; nra. Qed.
Lemma sides_up s o v : sle s 0 v -> sides s (None, Some o) o v.
Proof. intros H a _ Hu. destruct s; cbn in *; nra. Qed.

(* closes one case of [col_dual] / [row_dual] at a fixed sense: every column and every pair of sides by the lemma for
   its shape; what these ask for are comparisons that follow from the hypotheses of the case *)
Ltac by_shape :=
  repeat first [apply Forall2_nil | apply Forall2_cons];
  first [apply bounds_nonneg | apply bounds_nonpos | apply bounds_free | apply bounds_fixed
        | apply sides_eq | apply sides_lo | apply sides_up]; cbn; lra.

Lemma col_dual_sound s c v : col_ok c v ->
  Forall2 (bounds s) (snd (col_dual s c)) (repeat v (cnt s c)) /\ sides s (fst (col_dual s c)) (c_obj c) v.
Proof.
  intros [Hlo Hup]. destruct c as [o [l|] [u|]]; unfold cnt, col_dual; cbn [c_obj c_lo c_up] in *; cbn in Hlo, Hup.
  - (* l <= v <= u *) destruct (Qeq_bool l u) eqn:E; cbn [negb].
    + (* fixed *) apply Qeq_bool_eq in E. destruct s; cbn; split; by_shape.
    + (* boxed: a zero bound gives a side of the dual row, any other a column *) destruct (qz l) eqn:El; [apply qz_true in El | destruct (qz u) eqn:Eu; [apply qz_true in Eu|]];
        destruct s; cbn; split; by_shape.
  - (* l <= v *) destruct (qz l) eqn:El; [apply qz_true in El|]; destruct s; cbn; split; by_shape.
  - (* v <= u *) destruct (qz u) eqn:Eu; [apply qz_true in Eu|]; destruct s; cbn; split; by_shape.
  - (* free *) destruct s; cbn; split; by_shape.
Qed.

Lemma row_dual_sound s r x : row_ok x r ->
  Forall2 (bounds s) (row_dual s r) (repeat (dot (r_coefs r) x) (length (row_dual s r))).
Proof.
  intros [Hlo Hup]. destruct r as [[l|] a [u|]]; unfold row_dual; cbn [r_lhs r_rhs r_coefs] in *; cbn in Hlo, Hup.
  - (* equation or range *) destruct (Qeq_bool l u) eqn:E; [apply Qeq_bool_eq in E|]; destruct s; cbn; by_shape.
  - (* >= *) destruct s; cbn; by_shape.
  - (* <= *) destruct s; cbn; by_shape.
  - (* free row *) cbn; by_shape.
Qed.

(* what the costs of the variable-bound columns are compared with: the value of primal column j, once per such column *)
Fixpoint beta_vb (s : sense) (cs : list col) (x : list Q) : list Q :=
  match cs, x with
  | c :: cs', v :: x' => repeat v (cnt s c) ++ beta_vb s cs' x'
  | _, _ => []
  end.
(* the activities of the primal rows from column j on, once per dual column of the row *)
Definition beta_rc (s : sense) (j : nat) (rs : list row) (x : list Q) : list Q :=
  flat_map (fun r => repeat (dot (skipn j (r_coefs r)) x) (length (row_dual s r))) rs.

Lemma col_duals_bound s cs x : Forall2 col_ok cs x ->
  Forall2 (bounds s) (flat_map (fun c => snd (col_dual s c)) cs) (beta_vb s cs x).
Proof.
  induction 1; cbn [flat_map beta_vb]; [constructor | apply Forall2_app; [apply col_dual_sound|]; assumption].
Qed.

Lemma row_duals_bound s x rs : Forall (row_ok x) rs -> Forall2 (bounds s) (flat_map (row_dual s) rs) (beta_rc s 0 rs x).
Proof.
  induction 1; cbn [flat_map beta_rc]; [constructor | apply Forall2_app; [apply row_dual_sound|]; assumption].
Qed.

Lemma dot_skipn j : forall a v x, dot (skipn j a) (v :: x) == nthq j a * v + dot (skipn (S j) a) x.
Proof. induction j as [|j IH]; intros [|c a] v x; cbn [skipn nthq dot]; try lra. apply IH. Qed.

Lemma beta_rc_nil s j rs : forall z, dot (beta_rc s j rs []) z == 0.
Proof.
  unfold beta_rc. induction rs as [|r rs IH]; intros z; cbn [flat_map]; [reflexivity|].
  rewrite dot_app, IH, dot_nil_r, dot_repeat0. lra.
Qed.

Lemma beta_rc_cons s j rs v x : forall z,
  dot (beta_rc s j rs (v :: x)) z == v * dot (row_entries s j rs) z + dot (beta_rc s (S j) rs x) z.
Proof.
  unfold beta_rc, row_entries. induction rs as [|r rs IH]; intros z; cbn [flat_map]; [cbn; lra|].
  rewrite !dot_app, !repeat_length, IH, (dot_repeat (dot _ (v :: x))), (dot_repeat (nthq _ _)), (dot_repeat (dot _ x)), dot_skipn. ring.
Qed.

(* the activities of [rows] at the point z *)
Definition acts (z : list Q) (rows : list row) : list Q := map (fun r => dot (r_coefs r) z) rows.

Lemma total_cons s c cs : total s (c :: cs) = (cnt s c + total s cs)%nat.
Proof. apply app_length. Qed.

Lemma acts_dual_rows s rs z cs x : Forall2 col_ok cs x -> forall pre j,
  dot (acts z (dual_rows s rs pre j cs)) x ==
  dot (beta_vb s cs x) (skipn pre z) + dot (beta_rc s j rs x) (skipn (pre + total s cs) z).
Proof.
  induction 1 as [|c v cs x _ _ IH]; intros pre j; cbn [dual_rows acts map r_coefs dot beta_vb].
  - rewrite beta_rc_nil. lra.
  - fold (acts z (dual_rows s rs (pre + cnt s c) (S j) cs)).
    rewrite IH, beta_rc_cons, total_cons, !dot_app, !app_length, !repeat_length, !dot_repeat0, !skipn_skipn.
    rewrite (dot_repeat v), (Nat.add_comm _ pre), Nat.add_assoc. ring.
Qed.

Lemma dual_rows_le s rs z cs x : Forall2 col_ok cs x -> forall pre j, Forall (row_ok z) (dual_rows s rs pre j cs) ->
  sle s (dot (acts z (dual_rows s rs pre j cs)) x) (dot (map c_obj cs) x).
Proof.
  induction 1 as [|c v cs x Hc _ IH]; intros pre j Hr; cbn [dual_rows acts map dot] in *.
  - apply sle_refl.
  - inversion Hr as [|? ? [Hlo Hup] Hrr]; subst.
    apply sle_add; [apply (col_dual_sound s c v Hc); assumption | apply IH; assumption].
Qed.

Theorem dual_weak_duality p x z : feasible p x -> feasible (dual_of p) z ->
  sle (l_sense p) (objective (dual_of p) z) (objective p x - l_offset p).
Proof.
  intros [Hcx Hrx] [Hcz Hrz]. unfold objective, dual_of in *. cbn [l_cols l_rows l_sense l_offset] in *.
  set (s := l_sense p) in *. set (cs := l_cols p) in *. set (rs := l_rows p) in *.
  pose proof (col_duals_bound s cs x Hcx) as Bvb. pose proof (row_duals_bound s x rs Hrx) as Brc.
  apply (sle_trans s _ (dot (acts z (dual_rows s rs 0 0 cs)) x)).
  - (* dual objective <= beta . z = acts . x *)
    rewrite Qplus_0_l, (acts_dual_rows s rs z cs x Hcx 0 0). cbn [skipn Nat.add].
    unfold total. rewrite (Forall2_length _ _ _ Bvb), <- dot_app.
    apply bounds_dot_le; [apply Forall2_app; assumption | exact Hcz].
  - (* acts . x <= c . x *)
    setoid_replace (l_offset p + dot (map c_obj cs) x - l_offset p) with (dot (map c_obj cs) x) by ring.
    apply dual_rows_le; assumption.
Qed.

(* equal values certify both: what a run observes (primal and dual optimum agree) makes both points optimal *)
Theorem dual_equal_values_optimal p x z : feasible p x -> feasible (dual_of p) z ->
  objective (dual_of p) z == objective p x - l_offset p ->
  optimal p x /\ optimal (dual_of p) z.
Proof.
  intros Hx Hz E. split; split; auto.
  - intros y Hy. pose proof (dual_weak_duality p y z Hy Hz) as W. unfold better, sle in *. destruct (l_sense p); lra.
  - intros z' Hz'. pose proof (dual_weak_duality p x z' Hx Hz') as W. unfold dual_of at 1. cbn [l_sense].
    unfold better, sle, flip in *. destruct (l_sense p); lra.
Qed.
