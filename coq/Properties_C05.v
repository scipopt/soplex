(* C05 - Basis-inverse and basis-multiply queries agree with the user's basis matrix.
   Each Theorem is closed by a lemma of BasisInv_Proofs.v (a refutation by a computed witness) and followed by its
   assumption report.

   Reading guide.  [basis_matrix p bind] is the user's matrix B (columns: LP column bind_k, or the unit vector of row
   -1-bind_k).  [scale r c p] is the LP stored in the solver under power-of-two scaling with row exponents r and column
   exponents c.  [mulv B x] is B x, [vmul x B] is x^T B, [veq] is equality of zero-padded vectors.  The *_colrep / *_rowrep
   functions are the faithful models of the scaling glue in src/soplex.hpp (argument [true] = the branch
   "unscale && isScaled()"); the LU solves are oracle functions [solve] / [coSolve], assumed exact for the matrix the
   solver holds.  All statements hold for matrices, exponent vectors and index lists of every size. *)
From Coq Require Import QArith Qabs List ZArith Bool.
From SV Require Import Vec BasisInvModel BasisInv_Proofs.
Import ListNotations.
Local Open Scope Q_scope.

(* The scaled basis matrix is D_r * B * D_bind *)
Theorem C05_scaled_basis_factorisation :
  forall (r c : list Z) (p : lpmat) (bind : list Z),
    Forall2 (Forall2 Qeq) (basis_matrix (scale r c p) bind)
            (cscale (dbind r c bind) (rscale r (basis_matrix p bind))).
Proof. exact scaled_basis_factorisation. Qed.
Print Assumptions C05_scaled_basis_factorisation.

(* COLUMN representation: exact inner solve => exact answer for the USER's matrix *)
Theorem C05_binv_row_unscale :
  forall (p : lpmat) (r c bind : list Z) (coSolve : vec -> vec),
    (forall b, length b = lm_rows p -> veq (vmul (coSolve b) (basis_matrix (scale r c p) bind)) b) ->
    length bind = lm_rows p ->
    forall k, (k < lm_rows p)%nat ->
      veq (vmul (binv_row_colrep coSolve true r c (lm_rows p) bind k) (basis_matrix p bind)) (unit_vec (lm_rows p) k).
Proof. exact binv_row_unscale. Qed.
Print Assumptions C05_binv_row_unscale.

Theorem C05_binv_col_unscale :
  forall (p : lpmat) (r c bind : list Z) (solve : vec -> vec),
    (forall b, length b = lm_rows p -> veq (mulv (basis_matrix (scale r c p) bind) (solve b)) b) ->
    forall k, (k < lm_rows p)%nat ->
      veq (mulv (basis_matrix p bind) (binv_col_colrep solve true r c (lm_rows p) bind k)) (unit_vec (lm_rows p) k).
Proof. exact binv_col_unscale. Qed.
Print Assumptions C05_binv_col_unscale.

Theorem C05_binv_times_vec_unscale :
  forall (p : lpmat) (r c bind : list Z) (solve : vec -> vec),
    (forall b, length b = lm_rows p -> veq (mulv (basis_matrix (scale r c p) bind) (solve b)) b) ->
    forall v, length v = lm_rows p ->
      veq (mulv (basis_matrix p bind) (binv_times_vec_colrep solve true r c bind v)) v.
Proof. exact binv_times_vec_unscale. Qed.
Print Assumptions C05_binv_times_vec_unscale.

Theorem C05_mult_unscale :
  forall (p : lpmat) (r c bind : list Z) (v : vec),
    veq (mult_colrep true r c (basis_matrix (scale r c p) bind) bind v) (mulv (basis_matrix p bind) v).
Proof. exact mult_unscale. Qed.
Print Assumptions C05_mult_unscale.

Theorem C05_multT_unscale :
  forall (p : lpmat) (r c bind : list Z) (v : vec),
    veq (multT_colrep true r c (basis_matrix (scale r c p) bind) bind v) (vmul v (basis_matrix p bind)).
Proof. exact multT_unscale. Qed.
Print Assumptions C05_multT_unscale.

(* the hypotheses of the four solve theorems are satisfiable by a non-trivial instance (2 rows, 3 columns, basis = slack of
   row 0 and column 1, exponents r = [1,-2], c = [-1,0,3]) *)
Example C05_hypotheses_satisfiable :
  (forall b, length b = lm_rows ex_p -> veq (mulv (basis_matrix (scale ex_r ex_c ex_p) ex_bind) (ex_solve b)) b) /\
  (forall b, length b = lm_rows ex_p -> veq (vmul (ex_coSolve b) (basis_matrix (scale ex_r ex_c ex_p) ex_bind)) b) /\
  length ex_bind = lm_rows ex_p /\ wf_bind ex_p ex_bind = true.
Proof. repeat split; [exact ex_solve_exact | exact ex_coSolve_exact]. Qed.

(* ... and on it the glue returns the inverse of the user's basis [[1,1],[0,3]]: column 1 is (-1/3, 1/3) *)
Example C05_glue_instance :
  veqb (binv_col_colrep ex_solve true ex_r ex_c 2 ex_bind 1) [-(1 # 3); 1 # 3] = true /\
  veqb (binv_row_colrep ex_coSolve true ex_r ex_c 2 ex_bind 0) [1; -(1 # 3)] = true /\
  check_binv_col ex_p ex_bind (binv_col_colrep ex_solve true ex_r ex_c 2 ex_bind 1) 1 = true.
Proof. vm_compute. repeat split. Qed.

(* ROW representation *)
(* getBasisInd names existing rows / columns only *)
Theorem C05_bind_rowrep_in_range :
  forall (m n : nat) (ids : list bid) (b : Z), In b (bind_rowrep m n ids) ->
    ((b < 0)%Z /\ (Z.to_nat (-1 - b) < m)%nat) \/ ((0 <= b)%Z /\ (Z.to_nat b < n)%nat).
Proof. exact bind_rowrep_ok. Qed.
Print Assumptions C05_bind_rowrep_in_range.

(* getBasisInverseRowReal is right in both branches: if the inner solve is exact for the row basis of the stored LP, the
   assembled vector is row k of the inverse of the basis matrix named by getBasisInd (the "complement identity").
   [ids_ok]: the row basis names every row / column at most once and only existing ones. *)
Theorem C05_binv_row_rowrep_plain :
  forall (ps : lpmat) (ids : list bid) (r c : list Z) (solve : vec -> vec) (k : nat),
    ids_ok ps ids ->
    (forall b, length b = lm_ncols ps -> veq (mulv (rb_matrix ps ids) (solve b)) b) ->
    let bind := bind_rowrep (lm_rows ps) (lm_ncols ps) ids in
    (k < length bind)%nat ->
    veq (vmul (binv_row_rowrep solve false r c ps ids k) (basis_matrix ps bind)) (unit_vec (length bind) k).
Proof. exact binv_row_rowrep_plain. Qed.
Print Assumptions C05_binv_row_rowrep_plain.

Theorem C05_binv_row_rowrep_unscale :
  forall (p : lpmat) (ids : list bid) (r c : list Z) (solve : vec -> vec) (k : nat),
    ids_ok p ids ->
    (forall b, length b = lm_ncols p -> veq (mulv (rb_matrix (scale r c p) ids) (solve b)) b) ->
    let bind := bind_rowrep (lm_rows p) (lm_ncols p) ids in
    (k < length bind)%nat ->
    veq (vmul (binv_row_rowrep solve true r c (scale r c p) ids k) (basis_matrix p bind)) (unit_vec (length bind) k).
Proof. exact binv_row_rowrep_unscale. Qed.
Print Assumptions C05_binv_row_rowrep_unscale.

(* the hypotheses are satisfiable: the LP of the column-representation example with the row basis (bound of column 0, bound
   of column 2, row 1), whose complement is the user's basis (slack 0, column 1) *)
Example C05_rowrep_hypotheses_satisfiable :
  ids_ok ex_p exr_ids /\
  (forall b, length b = lm_ncols ex_p -> veq (mulv (rb_matrix ex_p exr_ids) (exr_solve b)) b) /\
  bind_rowrep 2 3 exr_ids = [(-1)%Z; 1%Z] /\
  check_binv_row ex_p [(-1)%Z; 1%Z] (binv_row_rowrep exr_solve false [] [] ex_p exr_ids 0) 0 = true /\
  check_binv_row ex_p [(-1)%Z; 1%Z] (binv_row_rowrep exr_solve false [] [] ex_p exr_ids 1) 1 = true.
Proof. split; [exact exr_ids_ok | split; [exact exr_solve_exact | vm_compute; repeat split]]. Qed.

(* multBasisTranspose is right in both branches *)
Theorem C05_multT_rowrep_plain :
  forall (r c : list Z) (ps : lpmat) (ids : list bid) (x : vec),
    veq (multT_rowrep false r c ps ids x) (vmul x (basis_matrix ps (bind_rowrep (lm_rows ps) (lm_ncols ps) ids))).
Proof. exact multT_rowrep_plain. Qed.
Print Assumptions C05_multT_rowrep_plain.

Theorem C05_multT_rowrep_unscale :
  forall (r c : list Z) (p : lpmat) (ids : list bid) (x : vec),
    veq (multT_rowrep true r c (scale r c p) ids x) (vmul x (basis_matrix p (bind_rowrep (lm_rows p) (lm_ncols p) ids))).
Proof. exact multT_rowrep_unscale. Qed.
Print Assumptions C05_multT_rowrep_unscale.

(* the unscaled branches of getBasisInverseColReal and getBasisInverseTimesVecReal are right ([wf_lp]: every column has
   numRows entries; the row basis has numCols entries) *)
Theorem C05_binv_col_rowrep_plain :
  forall (ps : lpmat) (ids : list bid) (r c : list Z) (coSolve : vec -> vec) (k : nat),
    ids_ok ps ids -> wf_lp ps = true -> length ids = lm_ncols ps ->
    (forall b, length b = lm_ncols ps -> veq (vmul (coSolve b) (rb_matrix ps ids)) b) ->
    (k < lm_rows ps)%nat ->
    veq (mulv (basis_matrix ps (bind_rowrep (lm_rows ps) (lm_ncols ps) ids)) (binv_col_rowrep coSolve false r c ps ids k))
        (unit_vec (lm_rows ps) k).
Proof. exact binv_col_rowrep_plain. Qed.
Print Assumptions C05_binv_col_rowrep_plain.

Theorem C05_binv_times_vec_rowrep_plain :
  forall (ps : lpmat) (ids : list bid) (r c : list Z) (coSolve : vec -> vec) (v : vec),
    ids_ok ps ids -> wf_lp ps = true -> length ids = lm_ncols ps ->
    (forall b, length b = lm_ncols ps -> veq (vmul (coSolve b) (rb_matrix ps ids)) b) ->
    length v = lm_rows ps ->
    veq (mulv (basis_matrix ps (bind_rowrep (lm_rows ps) (lm_ncols ps) ids)) (binv_times_vec_rowrep coSolve false r c ps ids v)) v.
Proof. exact binv_times_vec_rowrep_plain. Qed.
Print Assumptions C05_binv_times_vec_rowrep_plain.

(* REFUTED: getBasisInverseColReal, ROW representation, scaled LP, unscale = true: although the inner solve is exact for
   the row basis of the stored LP, the returned vector is not the inverse column of the user's basis matrix *)
Theorem C05_binv_col_rowrep_scaled_refuted :
  exists (p : lpmat) (r c : list Z) (ids : list bid) (k : nat) (coSolve : vec -> vec),
    (forall b, length b = lm_ncols p -> veq (vmul (coSolve b) (rb_matrix (scale r c p) ids)) b) /\
    (k < lm_rows p)%nat /\
    ~ veq (mulv (basis_matrix p (bind_rowrep (lm_rows p) (lm_ncols p) ids))
                (binv_col_rowrep coSolve true r c (scale r c p) ids k))
          (unit_vec (lm_rows p) k).
Proof.
  exists wa_p, wa_r, wa_c, wa_ids, 0%nat, wa_coSolve.
  exact (conj wa_oracle_exact (conj (le_n 1) binv_col_rowrep_scaled_wrong)).
Qed.
Print Assumptions C05_binv_col_rowrep_scaled_refuted.

(* REFUTED: getBasisInverseTimesVecReal, ROW representation, scaled LP, unscale = true *)
Theorem C05_binv_times_vec_rowrep_scaled_refuted :
  exists (p : lpmat) (r c : list Z) (ids : list bid) (v : vec) (coSolve : vec -> vec),
    (forall b, length b = lm_ncols p -> veq (vmul (coSolve b) (rb_matrix (scale r c p) ids)) b) /\
    length v = lm_rows p /\
    ~ veq (mulv (basis_matrix p (bind_rowrep (lm_rows p) (lm_ncols p) ids))
                (binv_times_vec_rowrep coSolve true r c (scale r c p) ids v))
          v.
Proof.
  exists wa_p, wa_r, wa_c, wb_ids, [1], wb_coSolve.
  exact (conj wb_oracle_exact (conj eq_refl binv_times_vec_rowrep_scaled_wrong)).
Qed.
Print Assumptions C05_binv_times_vec_rowrep_scaled_refuted.

(* REFUTED: multBasis, ROW representation (with or without scaling) *)
Theorem C05_mult_rowrep_refuted :
  exists (p : lpmat) (ids : list bid) (x : vec),
    length x = lm_rows p /\
    ~ veq (mult_rowrep p ids x) (mulv (basis_matrix p (bind_rowrep (lm_rows p) (lm_ncols p) ids)) x).
Proof. exists wc_p, wc_ids, [1; 1]. exact (conj eq_refl mult_rowrep_wrong). Qed.
Print Assumptions C05_mult_rowrep_refuted.

(* The three refuted branches as repaired by /verif/proposed_fixes/C05-*.diff return the exact answer *)
Theorem C05_binv_col_rowrep_fixed_unscale :
  forall (p : lpmat) (ids : list bid) (r c : list Z) (coSolve : vec -> vec) (k : nat),
    ids_ok p ids -> wf_lp p = true -> length ids = lm_ncols p ->
    (forall b, length b = lm_ncols p -> veq (vmul (coSolve b) (rb_matrix (scale r c p) ids)) b) ->
    (k < lm_rows p)%nat ->
    veq (mulv (basis_matrix p (bind_rowrep (lm_rows p) (lm_ncols p) ids))
              (binv_col_rowrep_fixed coSolve true r c (scale r c p) ids k))
        (unit_vec (lm_rows p) k).
Proof. exact binv_col_rowrep_fixed_unscale. Qed.
Print Assumptions C05_binv_col_rowrep_fixed_unscale.

Theorem C05_binv_times_vec_rowrep_fixed_unscale :
  forall (p : lpmat) (ids : list bid) (r c : list Z) (coSolve : vec -> vec) (v : vec),
    ids_ok p ids -> wf_lp p = true -> length ids = lm_ncols p ->
    (forall b, length b = lm_ncols p -> veq (vmul (coSolve b) (rb_matrix (scale r c p) ids)) b) ->
    length v = lm_rows p ->
    veq (mulv (basis_matrix p (bind_rowrep (lm_rows p) (lm_ncols p) ids))
              (binv_times_vec_rowrep_fixed coSolve true r c (scale r c p) ids v)) v.
Proof. exact binv_times_vec_rowrep_fixed_unscale. Qed.
Print Assumptions C05_binv_times_vec_rowrep_fixed_unscale.

Theorem C05_mult_rowrep_fixed_plain :
  forall (r c : list Z) (ps : lpmat) (ids : list bid) (x : vec),
    veq (mult_rowrep_fixed false r c ps ids x) (mulv (basis_matrix ps (bind_rowrep (lm_rows ps) (lm_ncols ps) ids)) x).
Proof. exact mult_rowrep_fixed_plain. Qed.
Print Assumptions C05_mult_rowrep_fixed_plain.

Theorem C05_mult_rowrep_fixed_unscale :
  forall (r c : list Z) (p : lpmat) (ids : list bid) (x : vec),
    veq (mult_rowrep_fixed true r c (scale r c p) ids x) (mulv (basis_matrix p (bind_rowrep (lm_rows p) (lm_ncols p) ids)) x).
Proof. exact mult_rowrep_fixed_unscale. Qed.
Print Assumptions C05_mult_rowrep_fixed_unscale.

(* on the branches the patches do not touch the repaired models are the shipped ones *)
Example C05_fixed_agrees_on_plain_branches :
  forall coSolve r c ps ids k v,
    binv_col_rowrep_fixed coSolve false r c ps ids k = binv_col_rowrep coSolve false r c ps ids k /\
    binv_times_vec_rowrep_fixed coSolve false r c ps ids v = binv_times_vec_rowrep coSolve false r c ps ids v.
Proof. intros. split; reflexivity. Qed.

(* The checkers that judge every answer of the implementation *)
Theorem C05_check_binv_col_sound :
  forall p bind col k, check_binv_col p bind col k = true ->
    wf_bind p bind = true /\ (k < lm_rows p)%nat /\ veq (mulv (basis_matrix p bind) col) (unit_vec (lm_rows p) k).
Proof. intros p bind col k. apply check_binv_col_iff. Qed.
Print Assumptions C05_check_binv_col_sound.

Theorem C05_check_binv_row_sound :
  forall p bind row k, check_binv_row p bind row k = true ->
    wf_bind p bind = true /\ (k < lm_rows p)%nat /\ veq (vmul row (basis_matrix p bind)) (unit_vec (lm_rows p) k).
Proof. intros p bind row k. apply check_binv_row_iff. Qed.
Print Assumptions C05_check_binv_row_sound.

Theorem C05_check_solve_sound :
  forall p bind rhs sol, check_solve p bind rhs sol = true ->
    wf_bind p bind = true /\ veq (mulv (basis_matrix p bind) sol) rhs.
Proof. intros p bind rhs sol. apply check_solve_iff. Qed.
Print Assumptions C05_check_solve_sound.

Theorem C05_check_mult_sound :
  forall p bind v out, check_mult p bind v out = true ->
    wf_bind p bind = true /\ veq out (mulv (basis_matrix p bind) v).
Proof. intros p bind v out. apply check_mult_iff. Qed.
Print Assumptions C05_check_mult_sound.

Theorem C05_check_multT_sound :
  forall p bind v out, check_multT p bind v out = true ->
    wf_bind p bind = true /\ veq out (vmul v (basis_matrix p bind)).
Proof. intros p bind v out. apply check_multT_iff. Qed.
Print Assumptions C05_check_multT_sound.

Theorem C05_check_binv_col_tol_sound :
  forall eps p bind col k, 0 <= eps -> check_binv_col_tol eps p bind col k = true ->
    wf_bind p bind = true /\ (k < lm_rows p)%nat /\
    forall i, Qabs (vnth (mulv (basis_matrix p bind) col) i - vnth (unit_vec (lm_rows p) k) i)
              <= tol_right eps (basis_matrix p bind) col (unit_vec (lm_rows p) k).
Proof. exact check_binv_col_tol_sound. Qed.
Print Assumptions C05_check_binv_col_tol_sound.

Theorem C05_check_binv_row_tol_sound :
  forall eps p bind row k, 0 <= eps -> check_binv_row_tol eps p bind row k = true ->
    wf_bind p bind = true /\ (k < lm_rows p)%nat /\
    forall j, Qabs (vnth (vmul row (basis_matrix p bind)) j - vnth (unit_vec (lm_rows p) k) j)
              <= tol_left eps (basis_matrix p bind) row (unit_vec (lm_rows p) k).
Proof. exact check_binv_row_tol_sound. Qed.
Print Assumptions C05_check_binv_row_tol_sound.

Theorem C05_check_solve_tol_sound :
  forall eps p bind rhs sol, 0 <= eps -> check_solve_tol eps p bind rhs sol = true ->
    wf_bind p bind = true /\
    forall i, Qabs (vnth (mulv (basis_matrix p bind) sol) i - vnth rhs i) <= tol_right eps (basis_matrix p bind) sol rhs.
Proof. exact check_solve_tol_sound. Qed.
Print Assumptions C05_check_solve_tol_sound.

Theorem C05_check_mult_tol_sound :
  forall eps p bind v out, 0 <= eps -> check_mult_tol eps p bind v out = true ->
    wf_bind p bind = true /\
    forall i, Qabs (vnth out i - vnth (mulv (basis_matrix p bind) v) i) <= tol_right eps (basis_matrix p bind) v out.
Proof. exact check_mult_tol_sound. Qed.
Print Assumptions C05_check_mult_tol_sound.

Theorem C05_check_multT_tol_sound :
  forall eps p bind v out, 0 <= eps -> check_multT_tol eps p bind v out = true ->
    wf_bind p bind = true /\
    forall j, Qabs (vnth out j - vnth (vmul v (basis_matrix p bind)) j) <= tol_left eps (basis_matrix p bind) v out.
Proof. exact check_multT_tol_sound. Qed.
Print Assumptions C05_check_multT_tol_sound.

(* the sparse index output lists exactly the non-zero positions *)
Theorem C05_check_inds_sound :
  forall coef inds, check_inds coef inds = true ->
    forall i, In i inds <-> (i < length coef)%nat /\ ~ vnth coef i == 0.
Proof. exact check_inds_sound. Qed.
Print Assumptions C05_check_inds_sound.

(* the exact comparison of padded vectors decides [veq] *)
Theorem C05_veqb_sound : forall u v, veqb u v = true -> veq u v.
Proof. exact veqb_sound. Qed.
Print Assumptions C05_veqb_sound.

Theorem C05_veqb_complete : forall u v, veq u v -> veqb u v = true.
Proof. exact veqb_complete. Qed.
Print Assumptions C05_veqb_complete.
