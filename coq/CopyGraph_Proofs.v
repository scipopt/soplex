(* C17 - the ownership model of copying (CopyGraph.v): under a safe member table no member of the copy designates a
   cell of the source, so writes through the copy are invisible to the source; an unsafe entry does alias. *)
From Coq Require Import List String Bool Arith Lia.
From SV Require Import CopyGraph.
Import ListNotations.

Lemma cell_eqb_true a b : cell_eqb a b = true <-> a = b.
Proof.
  destruct a as [o1 m1], b as [o2 m2]. unfold cell_eqb; simpl. rewrite andb_true_iff, Nat.eqb_eq, String.eqb_eq.
  split; [intros [-> ->]; reflexivity | intros H; injection H; auto].
Qed.

(* A table is safe exactly when every member of a copy designates a cell that the copy owns, whatever the source's
   member designates. *)
Theorem table_safe_iff (t : list (string * decl * how)) :
  table_safe t = true <-> forall (c : obj) e src_cell, In e t -> fst (cell_of_copy c e src_cell) = c.
Proof.
  unfold table_safe, cell_of_copy. rewrite forallb_forall. split.
  - intros H c e src He. now rewrite (H e He).
  - intros H e He. specialize (H 1 e (0, ""%string) He). destruct (safe _ _); [reflexivity | discriminate H].
Qed.

(* Consequently a write through any member of the copy is invisible through every cell the copy does not own ... *)
Theorem copy_write_frame (t : list (string * decl * how)) (c : obj) (h : heap) :
  table_safe t = true ->
  forall e src_cell v k, In e t -> fst k <> c -> write h (cell_of_copy c e src_cell) v k = h k.
Proof.
  intros Ht e src_cell v k He Hk. unfold write.
  destruct (cell_eqb k (cell_of_copy c e src_cell)) eqn:E; auto.
  apply cell_eqb_true in E. exfalso. apply Hk. rewrite E. now apply (proj1 (table_safe_iff t)).
Qed.

(* ... and an unsafe entry really aliases: the statement is sharp. *)
Theorem unsafe_entry_aliases (s c : obj) (e : string * decl * how) (src_cell : cell) (h : heap) v :
  safe (snd (fst e)) (snd e) = false -> write h (cell_of_copy c e src_cell) v src_cell = v.
Proof.
  intros H. unfold cell_of_copy, write. rewrite H.
  assert (cell_eqb src_cell src_cell = true) as -> by (now apply cell_eqb_true). reflexivity.
Qed.

(* Membership in a member table, decided by looking the member up by its name. *)
Lemma In_by_name (t : list (string * decl * how)) e :
  find (fun e' => String.eqb (fst (fst e')) (fst (fst e))) t = Some e -> In e t.
Proof. intros H. exact (proj1 (find_some _ _ H)). Qed.
