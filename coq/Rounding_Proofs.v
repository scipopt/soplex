(* C12 - soundness of the executable rounding checks of LiteralModel.v: what [nearest_doubleb] accepts is a closest
   finite binary64 number, and what [underflowsb] accepts is rounded to zero.
   The idea: every double m * 2^e is the integer m * 2^(e + 1074) ([units]) times 2^-1074 ([ulp_min]), so distances
   between doubles are compared as integers.  [grid_gap]: no double lies strictly between a canonical double and either
   of its neighbours.  [nearest_on_grid]: a point beyond a neighbour is no closer than the neighbour.  Hence a candidate
   that is not farther from q than its two neighbours is closest among all doubles, and the only closest value unless its
   mantissa is even ([nd_core_nearest]); normalisation and the sign are removed first. *)
From Coq Require Import ZArith QArith Qabs Qpower Bool List Lia Lqa Setoid.
From SV Require Import Dbl LiteralModel.
Local Open Scope Z_scope.

Lemma no_multiple_between a m' k k' :
  0 <= k <= k' -> a * 2 ^ k < m' * 2 ^ k' -> m' * 2 ^ k' < (a + 1) * 2 ^ k -> False.
Proof.
  intros Hk H1 H2. replace k' with ((k' - k) + k) in * by lia.
  rewrite Z.pow_add_r in * by lia.
  assert (0 < 2 ^ k) as P by (apply Z.pow_pos_nonneg; lia).
  set (M := m' * 2 ^ (k' - k)) in *. rewrite Z.mul_assoc in H1, H2. fold M in H1, H2.
  assert (a < M) by nia. assert (M < a + 1) by nia. lia.
Qed.

(* a 53-bit mantissa at a smaller exponent stays below a normalised mantissa *)
Lemma small_exponent_below a m' k k' :
  0 <= k' < k -> Z.abs m' < 2 ^ 53 -> 2 ^ 52 <= a -> m' * 2 ^ k' < a * 2 ^ k.
Proof.
  intros Hk Hm Ha.
  assert (0 < 2 ^ k') as P' by (apply Z.pow_pos_nonneg; lia).
  assert (2 ^ k = 2 ^ (k - k' - 1) * 2 * 2 ^ k') as E.
  { replace k with ((k - k' - 1) + 1 + k') at 1 by lia. rewrite !Z.pow_add_r by lia. reflexivity. }
  assert (1 <= 2 ^ (k - k' - 1)) as Q1.
  { assert (0 < 2 ^ (k - k' - 1)) by (apply Z.pow_pos_nonneg; lia). lia. }
  rewrite E. assert (m' < 2 ^ 53) by lia.
  assert (m' * 2 ^ k' < 2 ^ 53 * 2 ^ k') by nia.
  assert (2 ^ 53 * 2 ^ k' <= a * (2 ^ (k - k' - 1) * 2 * 2 ^ k')); [|lia].
  change (2 ^ 53) with (2 ^ 52 * 2). nia.
Qed.

(* m * 2^e counted in multiples of 2^-1074, the spacing of the subnormal numbers *)
Definition units (m e : Z) : Z := m * 2 ^ (e + 1074).

Lemma no_double_between a e m' e' :
  -1074 <= e -> -1074 <= e' -> Z.abs m' < 2 ^ 53 -> (e = -1074 \/ 2 ^ 52 <= a) ->
  units a e < units m' e' -> units m' e' < units (a + 1) e -> False.
Proof.
  unfold units. intros He He' Hm Hc H1 H2. destruct (Z_lt_le_dec e' e) as [Hk|Hk].
  - pose proof (small_exponent_below a m' (e + 1074) (e' + 1074)). lia.
  - apply (no_multiple_between a m' (e + 1074) (e' + 1074)); lia.
Qed.

Lemma units_lt_succ a e : -1074 <= e -> units a e < units (a + 1) e.
Proof. intros H. unfold units. assert (0 < 2 ^ (e + 1074)) by (apply Z.pow_pos_nonneg; lia). lia. Qed.

(* the lower neighbour as [nd_core] computes it *)
Definition pred_of (am e : Z) : Z * Z := if am =? 0 then (-1, -1074) else pred_mag am e.

Lemma pred_of_spec am e :
  0 <= am -> -1074 <= e -> (e = -1074 \/ 2 ^ 52 <= am) ->
  let (lm, le) := pred_of am e in -1074 <= le /\ (le = -1074 \/ 2 ^ 52 <= lm) /\ units (lm + 1) le = units am e.
Proof.
  intros Ha He Hc. unfold pred_of, pred_mag, units. destruct (Z.eqb_spec am 0) as [->|N]; [lia|].
  destruct (Z.eqb_spec am (2 ^ 52)) as [->|N2]; cbn [andb]; [destruct (Z.ltb_spec (-1074) e)|]; try lia.
  change (2 ^ 53) with (2 * 2 ^ 52). replace (e + 1074) with (Z.succ (e - 1 + 1074)) by lia.
  rewrite Z.pow_succ_r by lia. lia.
Qed.

Lemma grid_gap am e m' e' :
  0 <= am -> -1074 <= e -> (e = -1074 \/ 2 ^ 52 <= am) ->
  Z.abs m' < 2 ^ 53 -> -1074 <= e' ->
  let (lm, le) := pred_of am e in
  units m' e' <= units lm le \/ units m' e' = units am e \/ units (am + 1) e <= units m' e'.
Proof.
  intros Ham He Hc Hm' He'. pose proof (pred_of_spec am e Ham He Hc) as PS.
  destruct (pred_of am e) as [lm le]. destruct PS as (Hle & Hcl & ES).
  pose proof (no_double_between lm le m' e' Hle He' Hm' Hcl). pose proof (no_double_between am e m' e' He He' Hm' Hc).
  lia.
Qed.

Local Open Scope Q_scope.

Lemma two_nz : ~ inject_Z 2 == 0.
Proof. intros H. discriminate H. Qed.

Lemma dyadic_pow m e : dyadic_val m e == inject_Z m * (inject_Z 2) ^ e.
Proof.
  unfold dyadic_val. destruct (0 <=? e)%Z eqn:E.
  - apply Z.leb_le in E. rewrite inject_Z_mult, Zpower_Qpower by lia. reflexivity.
  - apply Z.leb_gt in E. rewrite Qmake_Qdiv. unfold Qdiv.
    assert (0 < 2 ^ (- e))%Z as P by (apply Z.pow_pos_nonneg; lia).
    rewrite Z2Pos.id by exact P. rewrite Zpower_Qpower by lia.
    replace e with (- - e)%Z at 2 by lia. rewrite (Qpower_opp (inject_Z 2) (- e)). reflexivity.
Qed.

Lemma dyadic_zero e : dyadic_val 0 e == 0.
Proof. rewrite dyadic_pow. change (inject_Z 0) with 0. ring. Qed.

Lemma dyadic_opp m e : dyadic_val (- m) e == - dyadic_val m e.
Proof. rewrite !dyadic_pow, inject_Z_opp. ring. Qed.

Lemma dyadic_double m e : dyadic_val (2 * m) (e - 1) == dyadic_val m e.
Proof.
  rewrite !dyadic_pow, inject_Z_mult.
  replace e with ((e - 1) + 1)%Z at 2 by lia. rewrite Qpower_plus by exact two_nz.
  change ((inject_Z 2) ^ 1) with (inject_Z 2). ring.
Qed.

Lemma dyadic_half m e : Z.even m = true -> dyadic_val (m / 2) (e + 1) == dyadic_val m e.
Proof.
  intros H. apply Z.even_spec in H as [c Hc]. subst m. rewrite Z.mul_comm, Z.div_mul by lia.
  rewrite <- (dyadic_double c (e + 1)). replace (e + 1 - 1)%Z with e by lia. rewrite Z.mul_comm. reflexivity.
Qed.

(* the least positive double *)
Definition ulp_min : Q := (inject_Z 2) ^ (-1074).

Lemma ulp_min_pos : 0 < ulp_min.
Proof. unfold ulp_min. apply Qpower_0_lt. reflexivity. Qed.

Lemma dyadic_units m e : (-1074 <= e)%Z -> dyadic_val m e == inject_Z (units m e) * ulp_min.
Proof.
  intros H. rewrite dyadic_pow. unfold units, ulp_min.
  rewrite inject_Z_mult, Zpower_Qpower by lia.
  rewrite <- Qmult_assoc, <- Qpower_plus by exact two_nz.
  replace (e + 1074 + -1074)%Z with e by lia. reflexivity.
Qed.

Lemma units_le_val a b : (a <= b)%Z -> inject_Z a * ulp_min <= inject_Z b * ulp_min.
Proof.
  intros H. apply Qmult_le_compat_r; [now rewrite <- Zle_Qle|]. apply Qlt_le_weak, ulp_min_pos.
Qed.

Lemma units_lt_val a b : (a < b)%Z -> inject_Z a * ulp_min < inject_Z b * ulp_min.
Proof.
  intros H. apply Qmult_lt_compat_r; [apply ulp_min_pos|]. now rewrite <- Zlt_Qlt.
Qed.

(* the value of a (mantissa, exponent) pair as pred_of returns it *)
Definition pair_val (p : Z * Z) : Q := dyadic_val (fst p) (snd p).

(* [grid_gap] in terms of values *)
Lemma grid_gap_val am e m' e' :
  (0 <= am)%Z -> is_double am e -> (e = -1074 \/ 2 ^ 52 <= am)%Z -> is_double m' e' ->
  dyadic_val m' e' <= pair_val (pred_of am e) < dyadic_val am e \/ dyadic_val m' e' == dyadic_val am e \/
  dyadic_val am e < dyadic_val (am + 1) e <= dyadic_val m' e'.
Proof.
  intros Ha (_ & C2 & _) Hcan (D1 & D2 & _). unfold pair_val.
  pose proof (pred_of_spec am e Ha C2 Hcan) as PS. pose proof (grid_gap am e m' e' Ha C2 Hcan D1 D2) as G.
  destruct (pred_of am e) as [lm le]. destruct PS as (Hle & _ & ES). cbn [fst snd].
  rewrite (dyadic_units lm le Hle), (dyadic_units (am + 1) e C2), (dyadic_units am e C2), (dyadic_units m' e' D2).
  pose proof (units_lt_succ lm le Hle) as L1. rewrite ES in L1. pose proof (units_lt_succ am e C2) as L2.
  destruct G as [G|[G|G]]; [left; split; [apply units_le_val | apply units_lt_val]; assumption
                           | right; left; rewrite G; reflexivity
                           | right; right; split; [apply units_lt_val | apply units_le_val]; assumption].
Qed.

(* z lies beyond y as seen from x: if x is as close to a as y is (closer than y), it is as close as z (closer than z);
   every absolute value is split by sign *)
Lemma far_side a x y z : x < y <= z \/ z <= y < x ->
  (Qabs (a - x) <= Qabs (a - y) -> Qabs (a - x) <= Qabs (a - z)) /\
  (Qabs (a - x) < Qabs (a - y) -> Qabs (a - x) < Qabs (a - z)).
Proof.
  intros H. apply (Qabs_case (a - x)); apply (Qabs_case (a - y)); apply (Qabs_case (a - z)); intros; split; intros; lra.
Qed.

(* x with its neighbours lo and hi on a grid, y another grid point: if x is at least as close to a as both neighbours, it
   is at least as close as y *)
Lemma nearest_on_grid a lo x hi y :
  y <= lo < x \/ y == x \/ x < hi <= y ->
  Qabs (a - x) <= Qabs (a - lo) -> Qabs (a - x) <= Qabs (a - hi) -> Qabs (a - x) <= Qabs (a - y).
Proof.
  intros [G|[G|G]] Hl Hu.
  - exact (proj1 (far_side a x lo y (or_intror G)) Hl).
  - rewrite G. apply Qle_refl.
  - exact (proj1 (far_side a x hi y (or_introl G)) Hu).
Qed.

(* and if x is closer than both neighbours, a grid point that is as close is x *)
Lemma only_nearest_on_grid a lo x hi y :
  y <= lo < x \/ y == x \/ x < hi <= y ->
  Qabs (a - x) < Qabs (a - lo) -> Qabs (a - x) < Qabs (a - hi) -> Qabs (a - y) <= Qabs (a - x) -> y == x.
Proof.
  intros [G|[G|G]] Hl Hu Hy.
  - elim (Qlt_not_le _ _ (proj2 (far_side a x lo y (or_intror G)) Hl) Hy).
  - exact G.
  - elim (Qlt_not_le _ _ (proj2 (far_side a x hi y (or_introl G)) Hu) Hy).
Qed.

Lemma qleb_le a b : qleb a b = true -> a <= b.
Proof. unfold qleb. intros H. apply Qle_alt. destruct (a ?= b); congruence. Qed.

Lemma qltb_lt a b : qltb a b = true -> a < b.
Proof. unfold qltb. intros H. apply Qlt_alt. destruct (a ?= b); congruence. Qed.

(* the comparison [nd_core] makes with a neighbour: nearer, or as near when the mantissa is even *)
Lemma nearer_spec a b c : qltb a b || (qleb a b && c) = true -> a <= b /\ (c = false -> a < b).
Proof.
  intros H. apply orb_true_iff in H as [H|H].
  - apply qltb_lt in H. split; [apply Qlt_le_weak|]; auto.
  - apply andb_true_iff in H as [H ->]. split; [apply qleb_le, H | discriminate].
Qed.

Lemma nd_core_neighbours aq am e :
  nd_core aq am e = true ->
  (Qabs (aq - dyadic_val am e) <= Qabs (aq - pair_val (pred_of am e)) /\
   Qabs (aq - dyadic_val am e) <= Qabs (aq - dyadic_val (am + 1) e)) /\
  (Z.even am = false -> Qabs (aq - dyadic_val am e) < Qabs (aq - pair_val (pred_of am e)) /\
                        Qabs (aq - dyadic_val am e) < Qabs (aq - dyadic_val (am + 1) e)).
Proof.
  unfold nd_core, pair_val, dist. fold (pred_of am e). destruct (pred_of am e) as [lm le]. cbn [fst snd].
  intros H. apply andb_true_iff in H as [H1 H2]. apply nearer_spec in H1 as [U1 U2], H2 as [L1 L2]. auto.
Qed.

Lemma canonicalb_spec m e : canonicalb m e = true -> canonical m e.
Proof.
  unfold canonicalb, canonical, is_double. rewrite !andb_true_iff, orb_true_iff, Z.ltb_lt, !Z.leb_le, Z.eqb_eq. tauto.
Qed.

(* (m, e) is a closest double to q, and no other value is as close unless m is even *)
Definition nearest_or_even (q : Q) (m e : Z) : Prop :=
  closest q m e /\ forall m' e', closest q m' e' -> ~ dyadic_val m' e' == dyadic_val m e -> Z.even m = true.

Lemma nd_core_nearest aq am e :
  (0 <= am)%Z -> canonicalb am e = true -> nd_core aq am e = true -> nearest_or_even aq am e.
Proof.
  intros Ha Hc Hn. destruct (canonicalb_spec am e Hc) as [D Hcan]. rewrite (Z.abs_eq am Ha) in Hcan.
  destruct (nd_core_neighbours aq am e Hn) as [[Hl Hu] N]. split.
  - split; [exact D|]. intros m' e' D'.
    exact (nearest_on_grid aq _ _ _ _ (grid_gap_val am e m' e' Ha D Hcan D') Hl Hu).
  - intros m' e' [D' Hmin] Hne. destruct (Z.even am); [reflexivity|]. destruct (N eq_refl) as [Hl' Hu']. elim Hne.
    exact (only_nearest_on_grid aq _ _ _ _ (grid_gap_val am e m' e' Ha D Hcan D') Hl' Hu' (Hmin am e D)).
Qed.

Lemma closest_opp q m e : closest q m e -> closest (- q) (- m) e.
Proof.
  intros [(D1 & D2 & D3) H]. split.
  - repeat split; auto. now rewrite Z.abs_opp.
  - intros m' e' (E1 & E2 & E3).
    assert (is_double (- m') e') as D' by (repeat split; auto; now rewrite Z.abs_opp).
    specialize (H (- m')%Z e' D'). rewrite dyadic_opp in H |- *.
    setoid_replace (- q - - dyadic_val m e) with (- (q - dyadic_val m e)) by ring.
    setoid_replace (- q - dyadic_val m' e') with (- (q - - dyadic_val m' e')) by ring.
    now rewrite !Qabs_opp.
Qed.

Lemma closest_Qeq q q' m e : q == q' -> closest q m e -> closest q' m e.
Proof.
  intros E [D H]. split; auto. intros m' e' D'. specialize (H m' e' D'). now rewrite <- E.
Qed.

Lemma nearest_or_even_opp q m e : nearest_or_even (- q) (- m) e -> nearest_or_even q m e.
Proof.
  intros [C Ev]. split.
  - apply closest_opp in C. rewrite Z.opp_involutive in C. apply (closest_Qeq (- - q)); [ring | exact C].
  - intros m' e' C' Hne. rewrite <- Z.even_opp. apply (Ev (- m')%Z e'); [now apply closest_opp|].
    rewrite !dyadic_opp. intros E. apply Hne. lra.
Qed.

Lemma norm_up_val fuel m e : pair_val (norm_up fuel m e) == dyadic_val m e.
Proof.
  revert m e. induction fuel as [|f IH]; intros m e; cbn [norm_up]; [reflexivity|].
  destruct ((Z.abs m <? 2 ^ 52)%Z && (-1074 <? e)%Z); [|reflexivity]. rewrite IH. apply dyadic_double.
Qed.

Lemma norm_down_val fuel m e : pair_val (norm_down fuel m e) == dyadic_val m e.
Proof.
  revert m e. induction fuel as [|f IH]; intros m e; cbn [norm_down]; [reflexivity|].
  assert (Z.even m = true -> pair_val (norm_down f (m / 2) (e + 1)) == dyadic_val m e) as Half
    by (intros Ev; rewrite IH; now apply dyadic_half).
  destruct ((2 ^ 53 <=? Z.abs m)%Z && Z.even m) eqn:B1; [apply Half; now apply andb_true_iff in B1|].
  destruct ((e <? -1074)%Z && Z.even m) eqn:B2; [apply Half; now apply andb_true_iff in B2|reflexivity].
Qed.

Lemma normalise_val m0 e0 : pair_val (normalise m0 e0) == dyadic_val m0 e0.
Proof.
  unfold normalise. generalize 2200%nat as fuel. intros fuel. destruct (m0 =? 0)%Z eqn:Z0.
  - apply Z.eqb_eq in Z0. subst. unfold pair_val. now rewrite !dyadic_zero.
  - pose proof (norm_down_val fuel m0 e0) as H1. destruct (norm_down fuel m0 e0) as [m1 e1].
    now rewrite norm_up_val.
Qed.

(* soundness with ties to even: what the check accepts has the value of a [nearest_double] *)
Theorem nearest_doubleb_nearest q m0 e0 :
  nearest_doubleb q m0 e0 = true -> exists m e, dyadic_val m e == dyadic_val m0 e0 /\ nearest_double q m e.
Proof.
  unfold nearest_doubleb. pose proof (normalise_val m0 e0) as HV. destruct (normalise m0 e0) as [m e].
  intros H. apply andb_true_iff in H as [Hc Hn]. exists m, e. split; [exact HV|].
  assert (nearest_or_even q m e) as [C Ev]; [|split; [exact C | intros m' e' C' Hne _ _; exact (Ev m' e' C' Hne)]].
  destruct (0 <=? m)%Z eqn:S.
  - apply Z.leb_le in S. rewrite Z.abs_eq in Hn by lia. now apply nd_core_nearest.
  - apply Z.leb_gt in S. rewrite Z.abs_neq in Hn by lia. apply nearest_or_even_opp, nd_core_nearest; [lia | | exact Hn].
    unfold canonicalb in *. now rewrite Z.abs_opp.
Qed.

Theorem nearest_doubleb_sound q m0 e0 :
  nearest_doubleb q m0 e0 = true -> exists m e, dyadic_val m e == dyadic_val m0 e0 /\ closest q m e.
Proof. intros H. destruct (nearest_doubleb_nearest q m0 e0 H) as (m & e & E & C & _). eauto. Qed.

(* by the laws of powers: evaluation would write out two numerals of 1075 bits *)
Lemma half_ulp : ulp_min == 2 * (1 # (2 ^ 1075)).
Proof.
  unfold ulp_min. change (-1074)%Z with (1 + Z.opp 1075)%Z. rewrite Qpower_plus by exact two_nz.
  apply Qmult_comp; [reflexivity|].
  rewrite Qpower_opp, <- Zpower_Qpower, Qmake_Qdiv, Pos2Z.inj_pow by lia. unfold Qdiv. rewrite Qmult_1_l. reflexivity.
Qed.

Theorem underflowsb_sound q : underflowsb q = true -> closest q 0 (-1074).
Proof.
  unfold underflowsb. intros H. apply qleb_le in H. set (h := 1 # (2 ^ 1075)) in *.
  apply Qabs_Qle_condition in H as [H1 H2].
  split.
  - repeat split; cbn; lia.
  - intros m' e' (D1 & D2 & D3). rewrite dyadic_zero, (dyadic_units m' e' D2).
    set (u' := units m' e'). pose proof half_ulp as HU. fold h in HU.
    assert (inject_Z u' * ulp_min <= -1 * ulp_min \/ u' = 0%Z \/ 1 * ulp_min <= inject_Z u' * ulp_min) as [T|[->|T]]
      by (destruct (Z.lt_trichotomy u' 0) as [L|[L|L]];
          [left; apply (units_le_val u' (-1)); lia | auto | right; right; apply (units_le_val 1 u'); lia]).
    all: change (inject_Z 0) with 0; apply (Qabs_case (q - 0)); apply (Qabs_case (q - _)); intros; lra.
Qed.
