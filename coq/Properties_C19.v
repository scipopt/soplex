(* C19 - Containers and sparse vectors behave as their abstract data types.
   Property theorems only; each is closed by a lemma of DataSet_Proofs.v / SparseVec_Proofs.v / Containers_Proofs.v or by
   a one-line instance of one.

   Part 1: DataSet / ClassSet (also the key management of SVSet, LPRowSet, LPColSet, NameSet), for an arbitrary
   element type D.  The model (DataSetModel.v) mirrors the arrays theitem[].info, thekey[] and the free list of the
   code; ds_abs is the set as its user sees it: the list of (key, element) in number order.
   Part 3: index sets, name sets, the growth of SVSet / LPRowSet / LPColSet, hash table (ContainersModel.v).
   Part 2: sparse / dense / semi-sparse vector algebra over Q (SparseVecModel.v). *)
From Coq Require Import List ZArith QArith Qabs Bool Permutation Sorted.
From SV Require Import DataSetModel DataSet_Proofs SparseVecModel SparseVec_Proofs ContainersModel Containers_Proofs.
Import ListNotations.

(* Part 1: DataSet / ClassSet *)
Local Open Scope Z_scope.

(* The representation invariant (0 <= num <= size <= max; thekey/theitem.info form a bijection between the numbers
   0..num-1 and the used slots; the free list is a duplicate-free chain through exactly size-num slots below size, each
   marked unused) holds in every state reachable from a constructor by any sequence of operations: add, add-many,
   remove by number / key / permutation / number list / key list, clear, reMax, element write, copy, assignment. *)
Theorem C19_dataset_inv :
  forall (D : Type) (d0 : D) (pmax : Z) (ops : list (op D)), ds_inv (ds_run d0 (ds_init d0 pmax) ops).
Proof. exact ds_reachable_inv. Qed.
Print Assumptions C19_dataset_inv.

Example C19_dataset_inv_witness :
  let s := ds_run 0 (ds_init 0 3) [OAdd 10; OAdd 11; OAdd 12; ORemove 0; ORemovePerm [0; -1]; OAdd 13; OReMax 7; OAssign 2] in
  ds_abs 0 s = [(2, 12); (1, 13)] /\ ds_free s = [0] /\ themax s = 3.
Proof. vm_compute. repeat split. Qed.

(* One concrete step commutes with the abstraction: the new abstract list is the abstract step applied to the old one
   (single removal = the last element takes the hole, multiple removal = stable compaction, reMax / copy / assignment
   = identity, ...), and keys handed out are fresh and pairwise distinct. *)
Theorem C19_refines_spec :
  forall (D : Type) (d0 : D) (s : ds D) (o : op D), ds_inv s ->
    ds_inv (fst (ds_step d0 s o)) /\
    ds_abs d0 (fst (ds_step d0 s o)) = astep d0 (ds_abs d0 s) o (snd (ds_step d0 s o)) /\
    out_ok D (ds_abs d0 s) (snd (ds_step d0 s o)).
Proof. exact ds_step_spec. Qed.
Print Assumptions C19_refines_spec.

(* Elements are numbered densely 0..num-1, keys are pairwise distinct, number(key(n)) = n, and a key whose number is
   non-negative is the key of that number. *)
Theorem C19_dense_numbering :
  forall (D : Type) (d0 : D) (s : ds D), ds_inv s ->
    zlen (ds_abs d0 s) = thenum s /\ NoDup (a_keys (ds_abs d0 s)) /\
    (forall n, 0 <= n < thenum s -> ds_number s (ds_key s n) = Some n) /\
    (forall k n, ds_number s k = Some n -> 0 <= n -> 0 <= n < thenum s /\ ds_key s n = k).
Proof. exact ds_dense. Qed.
Print Assumptions C19_dense_numbering.

(* (key, element) is in the set iff the lookups through the key say so: has(key), operator[](key) = element,
   number(key) = n with key(n) = key. *)
Theorem C19_lookup_by_key :
  forall (D : Type) (d0 : D) (s : ds D) (k : Z) (v : D), ds_inv s ->
    (In (k, v) (ds_abs d0 s) <->
     0 <= k < thesize s /\ ds_has_key s k = true /\ ds_elem_key d0 s k = v /\
     exists n, ds_number s k = Some n /\ 0 <= n < thenum s /\ ds_key s n = k).
Proof. exact ds_lookup. Qed.
Print Assumptions C19_lookup_by_key.

(* A key handed out on insertion identifies its element until that element is removed: over any operation sequence in
   which no operation removes k (or overwrites its element), (k, v) stays in the set. *)
Theorem C19_key_stable :
  forall (D : Type) (d0 : D) (s : ds D) (ops : list (op D)) (k : Z) (v : D), ds_inv s ->
    In (k, v) (ds_abs d0 s) -> never_removed D d0 s ops k -> In (k, v) (ds_abs d0 (ds_run d0 s ops)).
Proof. exact ds_key_stable. Qed.
Print Assumptions C19_key_stable.

Example C19_key_stable_witness :
  let s := ds_run 0 (ds_init 0 4) [OAdd 10; OAdd 11; OAdd 12] in
  let ops := [ORemove 0; OAdd 13; OReMax 9; ORemovePerm [0; -1; 0]; OAssign 1] in
  In (2, 12) (ds_abs 0 s) /\ never_removed Z 0 s ops 2 /\ ds_abs 0 (ds_run 0 s ops) = [(2, 12); (0, 13)].
Proof.
  vm_compute. split; [tauto|]. split; [|reflexivity].
  repeat split; intros H; repeat (destruct H as [H|H]; try discriminate); assumption.
Qed.

(* Removal by permutation: the invariant is kept, the returned array is a_perm_out perm, the set is the stable
   compaction of the survivors, capacity / size / element storage are untouched. *)
Theorem C19_remove_perm_spec :
  forall (D : Type) (d0 : D) (s : ds D) (perm : list Z), ds_inv s -> zlen perm = thenum s ->
    ds_inv (fst (ds_remove_perm s perm)) /\
    snd (ds_remove_perm s perm) = a_perm_out perm 0 /\
    ds_abs d0 (fst (ds_remove_perm s perm)) = a_remove_perm perm (ds_abs d0 s) /\
    themax (fst (ds_remove_perm s perm)) = themax s /\ thesize (fst (ds_remove_perm s perm)) = thesize s /\
    data (fst (ds_remove_perm s perm)) = data s /\
    thenum (fst (ds_remove_perm s perm)) = zlen (surv_keys perm (firstn (Z.to_nat (thenum s)) (keys s))).
Proof. exact ds_remove_perm_spec. Qed.
Print Assumptions C19_remove_perm_spec.

(* ... and the returned permutation reports where each survivor moved: removed entries stay negative, the survivor
   with old number i is found at new number perm'[i], survivors keep their relative order. *)
Theorem C19_perm_reports_moves :
  forall (D : Type) (d0 : D) (perm : list Z) (l : list (Z * D)) (j : Z), zlen perm = zlen l ->
    zlen (a_perm_out perm j) = zlen perm /\
    (forall i, 0 <= i < zlen l -> getn 0 perm i < 0 -> getn 0 (a_perm_out perm j) i = getn 0 perm i) /\
    (forall i, 0 <= i < zlen l -> 0 <= getn 0 perm i ->
       j <= getn 0 (a_perm_out perm j) i < j + zlen (a_remove_perm perm l) /\
       getn (-1, d0) (a_remove_perm perm l) (getn 0 (a_perm_out perm j) i - j) = getn (-1, d0) l i) /\
    (forall i i', 0 <= i < i' -> i' < zlen l -> 0 <= getn 0 perm i -> 0 <= getn 0 perm i' ->
       getn 0 (a_perm_out perm j) i < getn 0 (a_perm_out perm j) i').
Proof. exact a_perm_out_spec. Qed.
Print Assumptions C19_perm_reports_moves.

(* Growing (or shrinking down to size()) the capacity loses nothing: same (key, element) list, every key still valid
   with the same element, max() = max(newmax, size()). *)
Theorem C19_remax_preserves :
  forall (D : Type) (d0 : D) (s : ds D) (m : Z), ds_inv s ->
    ds_inv (ds_remax d0 s m) /\ ds_abs d0 (ds_remax d0 s m) = ds_abs d0 s /\
    themax (ds_remax d0 s m) = Z.max m (thesize s) /\
    (forall k v, In (k, v) (ds_abs d0 s) -> ds_elem_key d0 (ds_remax d0 s m) k = v /\ ds_has_key (ds_remax d0 s m) k = true).
Proof. exact ds_remax_preserves. Qed.
Print Assumptions C19_remax_preserves.

(* Assignment: the left-hand side becomes a consistent set with the same keys and elements, grown if necessary. *)
Theorem C19_assign_copies :
  forall (D : Type) (d0 : D) (lhs rhs : ds D), ds_inv lhs -> ds_inv rhs ->
    ds_inv (ds_assign d0 lhs rhs) /\ ds_abs d0 (ds_assign d0 lhs rhs) = ds_abs d0 rhs /\
    thenum (ds_assign d0 lhs rhs) = thenum rhs /\ thesize (ds_assign d0 lhs rhs) = thesize rhs /\
    themax (ds_assign d0 lhs rhs) = Z.max (themax lhs) (thesize rhs).
Proof. exact ds_assign_spec. Qed.
Print Assumptions C19_assign_copies.

(* The free list has no duplicates, holds exactly size-num slots, all of them unused, none of them the slot of an
   element. *)
Theorem C19_free_list_disjoint :
  forall (D : Type) (s : ds D), ds_inv s ->
    NoDup (ds_free s) /\ zlen (ds_free s) = thesize s - thenum s /\
    (forall x, In x (ds_free s) -> 0 <= x < thesize s /\ ds_has_key s x = false) /\
    (forall n, 0 <= n < thenum s -> ~ In (ds_key s n) (ds_free s)).
Proof. exact ds_free_spec. Qed.
Print Assumptions C19_free_list_disjoint.

(* What an abstract step keeps: an element whose key is neither removed nor overwritten by the operation is still in
   the set, whatever keys the implementation hands out. *)
Theorem C19_abstract_step_keeps :
  forall (D : Type) (d0 : D) (l : list (Z * D)) (o : op D) (r : out) (k : Z) (v : D),
    In (k, v) l -> ~ In k (a_removed d0 l o) -> ~ In k (a_written d0 l o) -> In (k, v) (astep d0 l o r).
Proof. exact astep_keeps. Qed.
Print Assumptions C19_abstract_step_keeps.

(* Part 3: index sets, name sets, vector sets, hash table *)

(* Index sets contain no duplicates: adding an index that is not in the set, removing a position and removing a range
   of positions keep the set duplicate-free; removal removes exactly the addressed entries and the entries in front of
   the first removed position keep their number. *)
Theorem C19_idxset_nodup :
  (forall l i, NoDup l -> ~ In i l -> NoDup (is_add l i)) /\
  (forall l n, NoDup l -> NoDup (is_remove_pos l n)) /\
  (forall l n m, 0 <= n <= m -> m < zlen l -> NoDup l -> NoDup (is_remove_range l n m)).
Proof. exact (conj is_add_nodup (conj is_remove_pos_nodup is_remove_range_nodup)). Qed.
Print Assumptions C19_idxset_nodup.

Theorem C19_idxset_remove_pos :
  forall l n, 0 <= n < zlen l ->
    Permutation (getn 0 l n :: is_remove_pos l n) l /\ zlen (is_remove_pos l n) = zlen l - 1 /\
    (forall i, 0 <= i < n -> getn 0 (is_remove_pos l n) i = getn 0 l i).
Proof. exact is_remove_pos_spec. Qed.
Print Assumptions C19_idxset_remove_pos.

Theorem C19_idxset_remove_range :
  forall l n m, 0 <= n <= m -> m < zlen l ->
    Permutation (is_remove_range l n m ++ firstn (Z.to_nat (m + 1 - n)) (skipn (Z.to_nat n) l)) l /\
    zlen (is_remove_range l n m) = zlen l - (m + 1 - n) /\
    (forall i, 0 <= i < n -> getn 0 (is_remove_range l n m) i = getn 0 l i).
Proof. exact is_remove_range_spec. Qed.
Print Assumptions C19_idxset_remove_range.

Theorem C19_idxset_pos :
  forall l i, (is_pos l i = -1 <-> ~ In i l) /\
    (0 <= is_pos l i -> is_pos l i < zlen l /\ getn 0 l (is_pos l i) = i /\ forall q, 0 <= q < is_pos l i -> getn 0 l q <> i).
Proof. exact is_pos_spec. Qed.
Print Assumptions C19_idxset_pos.

Example C19_idxset_witness :
  is_remove_range [5; 6; 7; 8; 9] 1 2 = [5; 8; 9] /\ is_remove_range [5; 6; 7] 1 2 = [5] /\ is_remove_pos [5; 6; 7] 0 = [7; 6].
Proof. vm_compute. repeat split. Qed.

(* Name lookup returns the index the name was registered under: a name that is in the set is found at its number,
   under its key, and the key leads back to the name. *)
Theorem C19_nameset_lookup :
  forall s name, ns_inv s -> ns_has s name = true ->
    0 <= ns_number s name < thenum s /\ getn 0 (ns_names s) (ns_number s name) = name /\
    ds_key s (ns_number s name) = ns_key s name /\ In (ns_key s name, name) (ds_abs 0 s).
Proof. intros s name [Hi _]. exact (ns_lookup s name Hi). Qed.
Print Assumptions C19_nameset_lookup.

(* Registration: a new name gets a fresh key and the next number, all other names keep number and key; a name
   that is already present is ignored. *)
Theorem C19_nameset_add :
  forall s name, ns_inv s -> ns_has s name = false ->
    let s' := fst (ns_add s name) in
    exists k, snd (ns_add s name) = Some k /\ ns_inv s' /\ ds_abs 0 s' = ds_abs 0 s ++ [(k, name)] /\
      ~ In k (a_keys (ds_abs 0 s)) /\ ns_number s' name = thenum s /\ ns_key s' name = k /\
      (forall other, ns_has s other = true -> ns_number s' other = ns_number s other /\ ns_key s' other = ns_key s other).
Proof. exact ns_add_new. Qed.
Print Assumptions C19_nameset_add.

Theorem C19_nameset_add_existing :
  forall s name, ns_has s name = true -> ns_add s name = (s, None).
Proof. exact ns_add_existing. Qed.
Print Assumptions C19_nameset_add_existing.

(* Lookup fails for removed names: after removing a name the lookup does not find it, every other name is still found
   under its old key. *)
Theorem C19_nameset_remove :
  forall s name, ns_inv s -> ns_has s name = true ->
    let s' := ns_remove_name s name in
    ns_inv s' /\ ns_has s' name = false /\
    (forall other, other <> name -> ns_has s' other = ns_has s other /\ ns_key s' other = ns_key s other) /\
    ds_abs 0 s' = a_remove (ns_number s name) (ds_abs 0 s).
Proof. exact ns_remove_name_spec. Qed.
Print Assumptions C19_nameset_remove.

(* removal of several names by their numbers (as they are when the call is made) or by their keys: exactly those names
   disappear, the others keep their keys *)
Theorem C19_nameset_remove_nums :
  forall s nums, ns_inv s -> (forall n, In n nums -> 0 <= n < thenum s) ->
    ns_inv (ns_remove_nums s nums) /\
    (forall name, ns_has (ns_remove_nums s nums) name = ns_has s name && negb (existsb (Z.eqb (ns_number s name)) nums)) /\
    (forall name, ns_has (ns_remove_nums s nums) name = true -> ns_key (ns_remove_nums s nums) name = ns_key s name).
Proof. exact ns_remove_nums_spec. Qed.
Print Assumptions C19_nameset_remove_nums.

Theorem C19_nameset_remove_keys :
  forall ks s, ns_inv s ->
    ns_inv (ns_remove_keys s ks) /\
    (forall name, ns_has (ns_remove_keys s ks) name = ns_has s name && negb (existsb (Z.eqb (ns_key s name)) ks)) /\
    (forall name, ns_has (ns_remove_keys s ks) name = true -> ns_key (ns_remove_keys s ks) name = ns_key s name).
Proof. exact ns_remove_keys_spec. Qed.
Print Assumptions C19_nameset_remove_keys.

Example C19_nameset_witness :
  let s := fst (ns_add (fst (ns_add (fst (ns_add (ds_init 0 2) 7)) 8)) 9) in
  ns_number s 8 = 1 /\ ns_key s 9 = 2 /\ themax s = 12 /\
  ns_has (ns_remove_name s 7) 7 = false /\ ns_number (ns_remove_name s 7) 9 = 0 /\ ns_key (ns_remove_name s 7) 9 = 2 /\
  ns_names (ns_remove_nums s [0; 1]) = [9].
Proof. vm_compute. repeat split. Qed.

(* The string memory of a NameSet (all names zero-terminated in one char array, the DataSet element of a name is its
   offset).  Memory operations change no observable: memPack() - which rewrites the names in NUMBER order, an order
   that differs from their order in memory after removals - and memRemax() leave the memory well formed and every name
   reads back unchanged; memPack() leaves exactly the bytes of the live names in use. *)
Theorem C19_nameset_mempack_invisible :
  forall (order : list Z) (st : nmem), nm_wf order st ->
    nm_wf order (nm_pack order st) /\
    (forall id, In id order -> nm_name (nm_pack order st) id = nm_name st id) /\
    nm_used (nm_pack order st) <= nm_used st /\ nm_max (nm_pack order st) = nm_max st /\
    nm_used (nm_pack order st) = fold_right (fun id a => zlen (nstr id) + 1 + a) 0 order.
Proof. exact nm_pack_spec. Qed.
Print Assumptions C19_nameset_mempack_invisible.

Theorem C19_nameset_memremax_invisible :
  forall (order : list Z) (st : nmem) (m : Z), nm_wf order st ->
    nm_wf order (nm_remax st m) /\ (forall id, In id order -> nm_name (nm_remax st m) id = nm_name st id) /\
    nm_used (nm_remax st m) = nm_used st /\ nm_max (nm_remax st m) = Z.max m (nm_used st).
Proof. exact nm_remax_spec. Qed.
Print Assumptions C19_nameset_memremax_invisible.

(* every name of a well-formed memory reads back as its own characters; add() (which packs and grows the memory by
   itself when the name does not fit) stores the new name and changes no other; removals only forget names *)
Theorem C19_nameset_strings :
  (forall order st id, nm_wf order st -> In id order -> nm_name st id = nstr id) /\
  (forall setmax mmax, 0 <= setmax -> nm_wf [] (nm_init setmax mmax)) /\
  (forall order st id, nm_wf order st -> 0 <= id -> ~ In id order ->
     nm_wf (order ++ [id]) (nm_add order st id) /\ nm_name (nm_add order st id) id = nstr id /\
     (forall other, In other order -> nm_name (nm_add order st id) other = nm_name st other)) /\
  (forall order st rem, nm_wf order st -> NoDup rem -> (forall id, In id rem -> In id order) ->
     nm_wf rem (nm_keep rem st) /\ (forall id, In id rem -> nm_name (nm_keep rem st) id = nm_name st id)).
Proof. exact (conj nm_name_wf (conj nm_init_wf (conj nm_add_spec nm_keep_spec))). Qed.
Print Assumptions C19_nameset_strings.

(* a name removed, a longer name renumbered into its place, then memPack: names a, bb, ccc, aaaaaaaaaa; the first one
   removed (the long last name takes number 0); packing in number order *)
Example C19_nameset_mempack_witness :
  let st0 := nm_init 2 64 in
  let st := nm_keep [9; 1; 2] (nm_add [0; 1; 2] (nm_add [0; 1] (nm_add [0] (nm_add [] st0 0) 1) 2) 9) in
  let p := nm_pack [9; 1; 2] st in
  nm_used st = 20 /\ nm_used p = 18 /\ nm_off p = [(9, 0); (1, 11); (2, 14)] /\
  nm_name p 9 = nstr 9 /\ nm_name p 1 = nstr 1 /\ nm_name p 2 = nstr 2.
Proof. vm_compute. repeat split. Qed.

(* SVSet / LPRowSet / LPColSet grow by themselves: ensurePSVec makes room without changing the set, so an insertion
   always succeeds and behaves like DataSet::add *)
Theorem C19_svset_add :
  forall (D : Type) (d0 : D) (s : ds D) (x : D), ds_inv s ->
    let s' := fst (svs_add d0 s x) in let k := snd (svs_add d0 s x) in
    ds_inv s' /\ ds_abs d0 s' = ds_abs d0 s ++ [(k, x)] /\ ~ In k (a_keys (ds_abs d0 s)) /\ thenum s' = thenum s + 1.
Proof. exact svs_add_spec. Qed.
Print Assumptions C19_svset_add.

(* hash table: a map from items to infos *)
Theorem C19_hashtable_map :
  (forall t k v k', ht_has t k = false -> ht_get (ht_add t k v) k' = if k' =? k then Some v else ht_get t k') /\
  (forall t k k', ht_get (ht_remove t k) k' = if k' =? k then None else ht_get t k').
Proof. exact (conj ht_add_get ht_remove_get). Qed.
Print Assumptions C19_hashtable_map.

Close Scope Z_scope.

(* Part 2: sparse, dynamic sparse, semi-sparse and dense vectors give the same values as dense arithmetic *)
Local Open Scope Q_scope.

(* scaling: dense (a * v) = a * dense v *)
Theorem C19_scale_dense :
  forall (n : nat) (a : Q) (v : svec), dv_eq (expand n (sv_scale a v)) (dv_scale a (expand n v)).
Proof. exact expand_scale. Qed.
Print Assumptions C19_scale_dense.

(* adding a non-zero with a fresh index / removing a position / assignment (which drops stored zeros) *)
Theorem C19_add_entry :
  forall (j : nat) (x : Q) (v : svec) (i : nat), ~ In j (sv_indices v) ->
    sv_get (sv_add j x v) i == (if Nat.eqb j i then x else sv_get v i).
Proof. exact sv_add_get. Qed.
Print Assumptions C19_add_entry.

Theorem C19_remove_entry :
  forall (p : nat) (v : svec) (i : nat), sv_nodup v -> (p < length v)%nat ->
    sv_get (sv_remove p v) i == (if Nat.eqb (fst (nth p v (0%nat, 0))) i then 0 else sv_get v i).
Proof. exact sv_remove_get. Qed.
Print Assumptions C19_remove_entry.

Theorem C19_assign_preserves_dense :
  forall (v : svec) (i : nat), sv_nodup v -> sv_get (sv_assign v) i == sv_get v i.
Proof. exact sv_assign_get. Qed.
Print Assumptions C19_assign_preserves_dense.

(* addition: dense (d + v) = d + dense v, and multiply-add, for a sparse operand without duplicate indices *)
Theorem C19_add_dense :
  forall (v : svec) (d : dvec) (i : nat), sv_nodup v -> sv_in_dim (length d) v ->
    dv_get (dv_add_sv v d) i == dv_get d i + sv_get v i.
Proof. exact dv_add_sv_get. Qed.
Print Assumptions C19_add_dense.

Theorem C19_multadd_dense :
  forall (x : Q) (v : svec) (d : dvec) (i : nat), sv_nodup v -> sv_in_dim (length d) v ->
    dv_get (dv_multadd_sv x v d) i == dv_get d i + x * sv_get v i.
Proof. exact dv_multadd_sv_get. Qed.
Print Assumptions C19_multadd_dense.

Theorem C19_assign_to_dense :
  forall (v : svec) (d : dvec), sv_nodup v -> sv_in_dim (length d) v -> dv_eq (dv_set_sv v d) (expand (length d) v).
Proof. exact dv_set_sv_expand. Qed.
Print Assumptions C19_assign_to_dense.

Theorem C19_dense_to_sparse :
  forall (d : dvec), dv_eq (expand (length d) (sv_of_dv d)) d.
Proof. exact sv_of_dv_expand. Qed.
Print Assumptions C19_dense_to_sparse.

(* scalar products: sparse * dense is the sum of products when the sparse operand has no duplicate index;
   sparse * sparse (the merge loop) is the scalar product of the dense expansions when both are sorted by index *)
Theorem C19_dot_sparse_dense :
  forall (n : nat) (v : svec) (d : dvec), sv_nodup v -> sv_in_dim n v -> length d = n ->
    sv_dot_dv v d == dv_dot (expand n v) d.
Proof. intros n v d Hnd Hdim _. exact (sv_dot_dv_spec n v d Hnd Hdim). Qed.
Print Assumptions C19_dot_sparse_dense.

Theorem C19_dot_sparse_sparse :
  forall (n : nat) (u v : svec), sv_sorted u -> sv_sorted v -> sv_in_dim n u -> sv_in_dim n v ->
    sv_dot_sv u v == dv_dot (expand n u) (expand n v).
Proof. intros n u v Hu Hv Hdu _. exact (sv_dot_sv_spec n u v Hu Hv Hdu). Qed.
Print Assumptions C19_dot_sparse_sparse.

Example C19_dot_witness :
  let u := [(0%nat, 2); (3%nat, 1 # 2)] in let v := [(1%nat, 5); (3%nat, 4)] in
  sv_sorted u /\ sv_sorted v /\ sv_dot_sv u v == 2 /\ dv_dot (expand 4 u) (expand 4 v) == 2.
Proof.
  split; [repeat constructor|]. split; [repeat constructor|]. split; vm_compute; reflexivity.
Qed.

(* the duplicate-free hypothesis is needed: with a repeated index the sparse product differs from the dense one *)
Example C19_dot_needs_nodup :
  let v := [(0%nat, 1); (0%nat, 1)] in ~ sv_dot_dv v [1] == dv_dot (expand 1 v) [1].
Proof. vm_compute. discriminate. Qed.

(* sorting gives a sorted permutation with the same dense values *)
Theorem C19_sort_sorted :
  forall (v : svec), StronglySorted (fun a b => (fst a <= fst b)%nat) (sv_sort v) /\ Permutation (sv_sort v) v.
Proof. exact (fun v => conj (sv_sort_sorted v) (sv_sort_perm v)). Qed.
Print Assumptions C19_sort_sorted.

Theorem C19_sort_preserves_dense :
  forall (v : svec) (i : nat), sv_nodup v -> sv_get (sv_sort v) i == sv_get v i.
Proof. exact sv_sort_get. Qed.
Print Assumptions C19_sort_preserves_dense.

(* setup (compress) of a semi-sparse vector: with epsilon 0 the values are unchanged and the index list is exactly the
   ascending list of positions holding a non-zero; with epsilon > 0 entries of magnitude <= epsilon become 0 *)
Theorem C19_setup_preserves_dense :
  forall (s : ssvec), dv_eq (ss_val (ss_setup_force 0 s)) (ss_val s).
Proof. exact ss_setup_force_val0. Qed.
Print Assumptions C19_setup_preserves_dense.

Theorem C19_setup_values :
  forall (eps : Q) (s : ssvec) (i : nat), 0 <= eps ->
    dv_get (ss_val (ss_setup_force eps s)) i ==
    (if Qle_bool (Qabs (dv_get (ss_val s) i)) eps then 0 else dv_get (ss_val s) i).
Proof. intros eps s i _. exact (ss_setup_force_val eps s i). Qed.
Print Assumptions C19_setup_values.

Theorem C19_setup_indices :
  forall (eps : Q) (s : ssvec) (i : nat), 0 <= eps ->
    (In i (ss_idx (ss_setup_force eps s)) <-> (i < ss_dim s)%nat /\ ~ Qabs (dv_get (ss_val s) i) <= eps).
Proof. exact ss_setup_force_idx. Qed.
Print Assumptions C19_setup_indices.

Theorem C19_setup_consistent :
  forall (eps : Q) (s : ssvec), 0 <= eps ->
    ss_ok eps (ss_setup_force eps s) /\ StronglySorted lt (ss_idx (ss_setup_force eps s)).
Proof. exact (fun eps s H => conj (ss_setup_force_ok eps s H) (ss_setup_force_sorted eps s)). Qed.
Print Assumptions C19_setup_consistent.

(* semi-sparse arithmetic: += sparse, multAdd, assignment from sparse, scaling, scalar product *)
Theorem C19_ss_add_sparse :
  forall (v : svec) (s : ssvec) (i : nat), ss_ok 0 s -> sv_nodup v -> sv_in_dim (ss_dim s) v ->
    dv_get (ss_val (ss_add_sv 0 v s)) i == dv_get (ss_val s) i + sv_get v i.
Proof. intros v s i _. exact (ss_add_sv_val0 v s i). Qed.
Print Assumptions C19_ss_add_sparse.

Theorem C19_ss_multadd_sparse :
  forall (x : Q) (v : svec) (s : ssvec) (i : nat), ss_ok 0 s -> sv_nodup v -> sv_in_dim (ss_dim s) v ->
    dv_get (ss_val (ss_multadd_sv 0 x v s)) i == dv_get (ss_val s) i + x * sv_get v i.
Proof. intros x v s i _. exact (ss_multadd_sv_val0 x v s i). Qed.
Print Assumptions C19_ss_multadd_sparse.

Theorem C19_ss_assign_sparse :
  forall (v : svec) (s : ssvec), ss_ok 0 s -> sv_nodup v -> sv_in_dim (ss_dim s) v ->
    dv_eq (ss_val (ss_set_sv 0 v s)) (expand (ss_dim s) v) /\ ss_ok 0 (ss_set_sv 0 v s).
Proof. exact (fun v s H1 H2 H3 => conj (ss_set_sv_val0 v s H1 H2 H3) (ss_set_sv_ok 0 v s H1 H2 H3)). Qed.
Print Assumptions C19_ss_assign_sparse.

Theorem C19_ss_scale :
  forall (x : Q) (s : ssvec) (i : nat), ss_ok 0 s -> ss_setup s = true ->
    dv_get (ss_val (ss_scale x s)) i == dv_get (ss_val s) i * x.
Proof. exact ss_scale_val0. Qed.
Print Assumptions C19_ss_scale.

Theorem C19_ss_dot :
  forall (a b : ssvec), ss_ok 0 a -> ss_setup a = true -> ss_dim a = ss_dim b ->
    ss_dot_ss a b == dv_dot (ss_val a) (ss_val b).
Proof. intros a b Hok Hs _. exact (ss_dot_ss_spec a b Hok Hs). Qed.
Print Assumptions C19_ss_dot.

(* the index-merging scalar product of two semi-sparse vectors equals the scalar product when both index lists
   are ascending (as setup() leaves them) *)
Theorem C19_ss_dot_merge :
  forall (a b : ssvec), ss_ok 0 a -> ss_ok 0 b -> ss_setup a = true -> ss_setup b = true ->
    StronglySorted lt (ss_idx a) -> StronglySorted lt (ss_idx b) -> ss_dim a = ss_dim b ->
    ss_dot_merge a b == ss_dot_ss a b.
Proof. intros a b _ Hb _ Hsb Ha Hb' _. exact (ss_dot_merge_spec a b Hb Hsb Ha Hb'). Qed.
Print Assumptions C19_ss_dot_merge.

(* ... and does not when an index list is out of order (setValue / add append indices in call order) *)
Example C19_ss_dot_merge_needs_sorted :
  let a := mkSS [1; 1] [1%nat; 0%nat] true in let b := mkSS [1; 1] [0%nat; 1%nat] true in
  ss_dot_ss a b == 2 /\ ss_dot_merge a b == 1.
Proof. split; vm_compute; reflexivity. Qed.

(* compress: the sparse copy of a set-up semi-sparse vector has the same dense values *)
Theorem C19_compress_preserves_dense :
  forall (w : ssvec), ss_ok 0 w -> ss_setup w = true -> dv_eq (expand (ss_dim w) (sv_of_ss w)) (ss_val w).
Proof. exact sv_of_ss_expand. Qed.
Print Assumptions C19_compress_preserves_dense.

(* removal of a range of non-zeros removes exactly the positions n..m *)
Theorem C19_remove_range :
  forall (n m : nat) (v : svec), (n <= m)%nat -> (m < length v)%nat ->
    Permutation (sv_remove_range n m v ++ firstn (m + 1 - n) (skipn n v)) v /\
    length (sv_remove_range n m v) = (length v - (m + 1 - n))%nat.
Proof. exact sv_remove_range_spec. Qed.
Print Assumptions C19_remove_range.

(* assignment between semi-sparse vectors and re-dimensioning keep the values and the consistency of the index list *)
Theorem C19_ss_assign_ss :
  forall (rhs this : ssvec), ss_ok 0 rhs -> ss_ok 0 this ->
    dv_eq (ss_val (ss_assign_ss 0 rhs this)) (ss_val rhs) /\ ss_ok 0 (ss_assign_ss 0 rhs this).
Proof. exact (fun rhs this H1 H2 => conj (ss_assign_ss_val0 rhs this H1 H2) (ss_assign_ss_ok 0 rhs this H1 H2)). Qed.
Print Assumptions C19_ss_assign_ss.

Theorem C19_ss_redim :
  forall (eps : Q) (n : nat) (s : ssvec) (i : nat), ss_ok eps s ->
    ss_ok eps (ss_redim n s) /\ dv_get (ss_val (ss_redim n s)) i = (if Nat.ltb i n then dv_get (ss_val s) i else 0) /\
    Permutation (ss_idx (ss_redim n s)) (filter (fun k => Nat.ltb k n) (ss_idx s)).
Proof. exact (fun eps n s i H => conj (ss_redim_ok eps n s H) (conj (ss_redim_val n s i) (ss_redim_idx_perm n s))). Qed.
Print Assumptions C19_ss_redim.

(* x^T A over a set of sparse rows *)
Theorem C19_rows_product :
  forall (n : nat) (x : dvec) (rows : list svec) (j : nat),
    (forall r, In r rows -> sv_nodup r /\ sv_in_dim n r) ->
    dv_get (rows_tmul n x rows) j == rows_sum x rows j.
Proof. exact rows_tmul_get. Qed.
Print Assumptions C19_rows_product.

(* multAdd keeps a set-up semi-sparse vector consistent (every non-zero indexed, every indexed value non-zero,
   no duplicate index), for every epsilon *)
Theorem C19_ss_multadd_consistent :
  forall (eps x : Q) (v : svec) (s : ssvec), 0 <= eps -> ss_ok 0 s -> ss_setup s = true -> ss_idx_nonzero s ->
    sv_nodup v -> sv_in_dim (ss_dim s) v ->
    ss_ok 0 (ss_multadd_sv eps x v s) /\ ss_idx_nonzero (ss_multadd_sv eps x v s).
Proof. exact ss_multadd_sv_exact. Qed.
Print Assumptions C19_ss_multadd_consistent.
