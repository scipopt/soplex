(* C07 - lemmas about SyncModel.  Every call of SPxLPBase<R> is parametric in the number type: two LPs that are related
   entry by entry stay related when they receive related calls (papply_rel).  A double is related to a rational when
   it is adjacent to it (adj); the type arrays are right when they classify the rational bounds (types_ok).  From these:
   the invariants of the solver object (Inv, InSync, TypesOK, SenseOK) through every call, what the explicit sync calls
   and the copy before an exact solve establish, histories of calls with and against the statements of the property,
   and an oracle for the conversions that meets the one assumption made about them. *)
From Coq Require Import ZArith QArith Qabs List Bool Arith Lia Lqa.
From SV Require Import ListAux SyncModel.
Import ListNotations.
Local Open Scope nat_scope.

Lemma setn_length {A} k (x : A) l : length (setn k x l) = length l.
Proof. revert k; induction l as [|y t IH]; intros [|k]; simpl; auto. Qed.

Lemma nth_setn_eq {A} k (x : A) l d : k < length l -> nth k (setn k x l) d = x.
Proof. revert k; induction l as [|y t IH]; intros [|k] H; simpl in *; try lia; auto. apply IH; lia. Qed.

Lemma nth_setn_neq {A} k j (x : A) l d : k <> j -> nth j (setn k x l) d = nth j l d.
Proof. revert k j; induction l as [|y t IH]; intros [|k] [|j] H; simpl; auto; try lia. Qed.

Lemma setn_oob {A} k (x : A) l : length l <= k -> setn k x l = l.
Proof. revert k; induction l as [|y t IH]; intros [|k] H; simpl in *; auto; try lia. f_equal; apply IH; lia. Qed.

Lemma firstn_setn {A} n k (x : A) l : k < n -> firstn n (setn k x l) = setn k x (firstn n l).
Proof.
  revert n k; induction l as [|y t IH]; intros [|n] [|k] H; simpl; auto; try lia.
  f_equal. apply IH; lia.
Qed.

Lemma map2_length {A B C} (f : A -> B -> C) l r : length l = length r -> length (map2 f l r) = length l.
Proof. revert r; induction l as [|x t IH]; intros [|y s] H; simpl in *; auto; try lia. Qed.

Lemma map2_app {A B C} (f : A -> B -> C) a a' b b' :
  length a = length b -> map2 f (a ++ a') (b ++ b') = map2 f a b ++ map2 f a' b'.
Proof. revert b; induction a as [|x t IH]; intros [|y s] H; simpl in *; try lia; auto. f_equal; apply IH; lia. Qed.

Lemma map2_setn {A B C} (f : A -> B -> C) i a b l r :
  length l = length r ->
  map2 f (setn i a l) (setn i b r) = setn i (f a b) (map2 f l r).
Proof.
  revert i r; induction l as [|x t IH]; intros [|i] [|y s] H; simpl in *; try lia; auto. f_equal; apply IH; lia.
Qed.

Lemma map2_setn_l {A B C} (f : A -> B -> C) i a l r db :
  length l = length r -> map2 f (setn i a l) r = setn i (f a (nth i r db)) (map2 f l r).
Proof.
  revert i r; induction l as [|x t IH]; intros [|i] [|y s] H; simpl in *; try lia; auto. f_equal; apply IH; lia.
Qed.

Lemma map2_setn_r {A B C} (f : A -> B -> C) i b l r da :
  length l = length r -> map2 f l (setn i b r) = setn i (f (nth i l da) b) (map2 f l r).
Proof.
  revert i r; induction l as [|x t IH]; intros [|i] [|y s] H; simpl in *; try lia; auto. f_equal; apply IH; lia.
Qed.

Lemma nth_map2 {A B C} (f : A -> B -> C) i l r da db dc :
  i < length l -> length l = length r -> nth i (map2 f l r) dc = f (nth i l da) (nth i r db).
Proof.
  revert i r; induction l as [|x t IH]; intros [|i] [|y s] H1 H2; simpl in *; try lia; auto. apply IH; lia.
Qed.

Lemma map2_firstn {A B C} (f : A -> B -> C) n l r : firstn n (map2 f l r) = map2 f (firstn n l) (firstn n r).
Proof. revert l r; induction n as [|n IH]; intros [|x t] [|y s]; simpl; auto. f_equal; apply IH. Qed.

Lemma map2_nil_r {A B C} (f : A -> B -> C) l : map2 f l [] = [].
Proof. destruct l; reflexivity. Qed.

Lemma map2_skipn {A B C} (f : A -> B -> C) n l r : skipn n (map2 f l r) = map2 f (skipn n l) (skipn n r).
Proof.
  revert l r; induction n as [|n IH]; intros l r; [reflexivity|].
  destruct l as [|x t]; [reflexivity|]. destruct r as [|y s]; simpl.
  - now rewrite map2_nil_r.
  - apply IH.
Qed.

Lemma map2_keepm {A B C} (f : A -> B -> C) mask l r :
  length l = length r -> keepm mask (map2 f l r) = map2 f (keepm mask l) (keepm mask r).
Proof.
  revert l r; induction mask as [|b t IH]; intros [|x l] [|y r] H; simpl in *; try lia; auto.
  destruct b; simpl; [f_equal|]; apply IH; lia.
Qed.

Lemma keepm_length_eq {A B} mask (l : list A) (r : list B) :
  length l = length r -> length (keepm mask l) = length (keepm mask r).
Proof.
  revert l r; induction mask as [|b t IH]; intros [|x l] [|y r] H; simpl in *; try lia; auto.
  destruct b; simpl; [f_equal|]; apply IH; lia.
Qed.

Lemma move_last_length_eq {A B} (d : A) (e : B) k l r :
  length l = length r -> length (move_last d k l) = length (move_last e k r).
Proof.
  intros H. unfold move_last. rewrite <- H. destruct (k =? length l - 1).
  - rewrite !firstn_length. lia.
  - rewrite !setn_length, !firstn_length. lia.
Qed.

Lemma map2_move_last {A B C} (f : A -> B -> C) da db k l r :
  length l = length r ->
  map2 f (move_last da k l) (move_last db k r) = move_last (f da db) k (map2 f l r).
Proof.
  intros H. unfold move_last. rewrite map2_length by auto. rewrite <- H.
  destruct (k =? length l - 1) eqn:E.
  - now rewrite map2_firstn.
  - rewrite map2_firstn. apply Nat.eqb_neq in E.
    destruct (Nat.lt_ge_cases (length l - 1) (length l)) as [Hlt|Hge].
    + rewrite (nth_map2 f (length l - 1) l r da db) by auto.
      apply map2_setn. rewrite !firstn_length. lia.
    + assert (length l = 0) by lia. destruct l; simpl in *; try lia. destruct r; simpl in *; try lia.
      destruct k; reflexivity.
Qed.

Lemma Forall2_setn {A B} (R : A -> B -> Prop) k x y l r :
  R x y -> Forall2 R l r -> Forall2 R (setn k x l) (setn k y r).
Proof. intros Hx H. revert k. induction H; intros [|k]; simpl; auto. Qed.

Lemma Forall2_skipn {A B} (R : A -> B -> Prop) n l r : Forall2 R l r -> Forall2 R (skipn n l) (skipn n r).
Proof. intros H. revert n. induction H; intros [|n]; simpl; auto. Qed.

Lemma Forall2_keepm {A B} (R : A -> B -> Prop) mask l r : Forall2 R l r -> Forall2 R (keepm mask l) (keepm mask r).
Proof.
  intros H. revert mask. induction H; intros [|b t]; simpl; auto. destruct b; auto.
Qed.

Lemma Forall2_move_last {A B} (R : A -> B -> Prop) d e k l r :
  R d e -> Forall2 R l r -> Forall2 R (move_last d k l) (move_last e k r).
Proof.
  intros Hd H. unfold move_last. rewrite <- (Forall2_length _ _ _ H).
  destruct (k =? length l - 1).
  - now apply Forall2_firstn.
  - apply Forall2_setn. { now apply Forall2_nth. } now apply Forall2_firstn.
Qed.

Lemma Forall2_map2 {A A' B B' C C'} (R1 : A -> A' -> Prop) (R2 : B -> B' -> Prop) (R3 : C -> C' -> Prop)
      (f : A -> B -> C) (f' : A' -> B' -> C') a a' b b' :
  (forall x x' y y', R1 x x' -> R2 y y' -> R3 (f x y) (f' x' y')) ->
  Forall2 R1 a a' -> Forall2 R2 b b' -> Forall2 R3 (map2 f a b) (map2 f' a' b').
Proof.
  intros Hf H. revert b b'. induction H; intros b b' Hb; simpl; auto.
  destruct Hb; simpl; auto.
Qed.

Lemma Forall2_map_both {A A' B B'} (R : A -> A' -> Prop) (S : B -> B' -> Prop) (f : A -> B) (f' : A' -> B') l l' :
  (forall x x', R x x' -> S (f x) (f' x')) -> Forall2 R l l' -> Forall2 S (map f l) (map f' l').
Proof. intros Hf H. induction H; simpl; auto. Qed.

Lemma Forall2_map_l {A B} (R : A -> B -> Prop) (f : B -> A) l : (forall x, In x l -> R (f x) x) -> Forall2 R (map f l) l.
Proof. intros Hf. induction l; simpl; constructor; auto. apply Hf; simpl; auto. apply IHl; intros; apply Hf; simpl; auto. Qed.

Lemma Forall2_map_r {A B} (R : A -> B -> Prop) (f : A -> B) l : (forall x, In x l -> R x (f x)) -> Forall2 R l (map f l).
Proof. intros Hf. induction l; simpl; constructor; auto. apply Hf; simpl; auto. apply IHl; intros; apply Hf; simpl; auto. Qed.

Lemma Forall2_refl_in {A} (R : A -> A -> Prop) l : (forall x, In x l -> R x x) -> Forall2 R l l.
Proof. intros Hf. now apply Forall2_diag, Forall_forall. Qed.

Section Rel.
  Context {A B : Type}.
  Variable R : A -> B -> Prop.

  Variables (tz : A) (tz' : B).
  (* two sparse vectors denote related dense vectors *)
  Definition sv_rel (v : svec A) (v' : svec B) : Prop := forall j, R (sget tz j v) (sget tz' j v').

  Record lp_rel (l : lp A) (l' : lp B) : Prop := mkRel {
    r_lhs : Forall2 R (lhs l) (lhs l'); r_rhs : Forall2 R (rhs l) (rhs l');
    r_mobj : Forall2 R (mobj l) (mobj l'); r_lo : Forall2 R (lo l) (lo l'); r_up : Forall2 R (up l) (up l');
    r_mat : Forall2 (Forall2 R) (mat l) (mat l');
    r_lmax : lmax l = lmax l'; r_off : R (off l) (off l')
  }.

  Variables (nz : A -> bool) (nz' : B -> bool).

  Definition rs_rel (r : rowspec A) (r' : rowspec B) : Prop :=
    let '(a, b, v) := r in let '(a', b', v') := r' in R a a' /\ R b b' /\ sv_rel v v'.
  Definition cs_rel (c : colspec A) (c' : colspec B) : Prop :=
    let '(o, a, b, v) := c in let '(o', a', b', v') := c' in R o o' /\ R a a' /\ R b b' /\ sv_rel v v'.

  (* related calls; an add must in addition ask for the same number of implicitly created columns / rows *)
  Inductive prim_rel : prim A -> prim B -> Prop :=
  | RAddRowR r r' : rs_rel r r' -> vdim nz (snd r) = vdim nz' (snd r') -> prim_rel (PAddRow r) (PAddRow r')
  | RAddColR c c' : cs_rel c c' -> vdim nz (snd c) = vdim nz' (snd c') -> prim_rel (PAddCol c) (PAddCol c')
  | RChgRowR i r r' : rs_rel r r' -> prim_rel (PChgRow i r) (PChgRow i r')
  | RChgColR j c c' : cs_rel c c' -> prim_rel (PChgCol j c) (PChgCol j c')
  | RLhsR i x y : R x y -> prim_rel (PLhs i x) (PLhs i y)
  | RRhsR i x y : R x y -> prim_rel (PRhs i x) (PRhs i y)
  | RLoR i x y : R x y -> prim_rel (PLo i x) (PLo i y)
  | RUpR i x y : R x y -> prim_rel (PUp i x) (PUp i y)
  | RObjR i x y : R x y -> prim_rel (PObj i x) (PObj i y)
  | RLhsVR xs ys : Forall2 R xs ys -> prim_rel (PLhsV xs) (PLhsV ys)
  | RRhsVR xs ys : Forall2 R xs ys -> prim_rel (PRhsV xs) (PRhsV ys)
  | RLoVR xs ys : Forall2 R xs ys -> prim_rel (PLoV xs) (PLoV ys)
  | RUpVR xs ys : Forall2 R xs ys -> prim_rel (PUpV xs) (PUpV ys)
  | RObjVR xs ys : Forall2 R xs ys -> prim_rel (PObjV xs) (PObjV ys)
  | RElemR i j x y : R x y -> prim_rel (PElem i j x) (PElem i j y)
  | RRemRowR i : prim_rel (PRemRow i) (PRemRow i)
  | RRemColR j : prim_rel (PRemCol j) (PRemCol j)
  | RRemRowsR m : prim_rel (PRemRows m) (PRemRows m)
  | RRemColsR m : prim_rel (PRemCols m) (PRemCols m)
  | RClearR : prim_rel PClear PClear
  | RSenseR mx : prim_rel (PSense mx) (PSense mx)
  | ROffR x y : R x y -> prim_rel (POff x) (POff y).

  Variables (tneg : A -> A) (tneg' : B -> B) (tinf : A) (tinf' : B).
  Hypothesis Hz : R tz tz'.
  Hypothesis Hneg : forall x y, R x y -> R (tneg x) (tneg' y).
  Hypothesis Hinf : R tinf tinf'.

  Lemma dense_rel n v v' : sv_rel v v' -> Forall2 R (dense tz n v) (dense tz' n v').
  Proof.
    intros H. apply (proj1 (Forall2_map R (fun j => sget tz j v) (fun j => sget tz' j v') _ _)).
    apply Forall2_diag, Forall_forall. intros; apply H.
  Qed.

  Lemma sgn_rel mx x y : R x y -> R (sgn tneg mx x) (sgn tneg' mx y).
  Proof. destruct mx; simpl; auto. Qed.

  Lemma nrows_rel l l' : lp_rel l l' -> nrows l = nrows l'.
  Proof. intros H. unfold nrows. apply (Forall2_length _ _ _ (r_lhs _ _ H)). Qed.
  Lemma ncols_rel l l' : lp_rel l l' -> ncols l = ncols l'.
  Proof. intros H. unfold ncols. apply (Forall2_length _ _ _ (r_lo _ _ H)). Qed.

  (* a list that the model builds from related parts is related *)
  Local Hint Resolve Forall2_app Forall2_repeat Forall2_setn Forall2_move_last Forall2_keepm
    Forall2_map_both Forall2_map2 dense_rel sgn_rel : rel.

  Theorem papply_rel p p' l l' :
    prim_rel p p' -> lp_rel l l' ->
    lp_rel (papply tz tneg nz tinf p l) (papply tz' tneg' nz' tinf' p' l').
  Proof.
    intros Hp H. pose proof (nrows_rel _ _ H) as Hm. pose proof (ncols_rel _ _ H) as Hn.
    destruct H as [Hlhs Hrhs Hobj Hlo Hup Hmat Hmax Hoff].
    destruct Hp as [r r' Hr Hd|c c' Hc Hd|i r r' Hr|j c c' Hc|i x y Hx|i x y Hx|i x y Hx|i x y Hx|i x y Hx
                    |xs ys Hxs|xs ys Hxs|xs ys Hxs|xs ys Hxs|xs ys Hxs|i j x y Hx|i|j|m|m| |mx|x y Hx]; simpl.
    1, 3: destruct r as [[a b] v], r' as [[a' b'] v']; simpl in *; destruct Hr as (Ha & Hb & Hv).
    3, 4: destruct c as [[[o a] b] v], c' as [[[o' a'] b'] v']; simpl in *; destruct Hc as (Ho & Ha & Hb & Hv).
    all: rewrite ?Hd, ?Hm, ?Hn, ?Hmax; try (constructor; simpl; eauto 6 with rel; fail).
    - constructor; simpl; eauto with rel. apply Forall2_app; [|constructor; auto with rel].
      eapply Forall2_map_both; [|exact Hmat]. eauto with rel.
    - constructor; simpl; eauto with rel. apply (Forall2_map2 (Forall2 R) R (Forall2 R)); eauto with rel.
    - constructor; simpl; auto with rel. repeat apply Forall2_setn; auto. now apply Forall2_nth.
    - constructor; simpl; auto. destruct (Bool.eqb mx (lmax l')); eauto with rel.
  Qed.

  Lemma applys_rel ps ps' l l' :
    Forall2 prim_rel ps ps' -> lp_rel l l' ->
    lp_rel (applys (papply tz tneg nz tinf) ps l) (applys (papply tz' tneg' nz' tinf') ps' l').
  Proof.
    intros H. revert l l'. unfold applys. induction H as [|p p' ps ps' Hp _ IH]; intros l l' Hl; simpl; auto.
    apply IH. now apply papply_rel.
  Qed.
End Rel.

Definition is_double (d : dy) : Prop := is_doubleb d = true.

(* d is q, or the largest double below q, or the smallest double above q: no double lies beyond d in the direction
   of q up to and including q *)
Definition adj (d : dy) (q : Q) : Prop :=
  is_double d /\
  forall d', is_double d' ->
    ~ (d2q d < d2q d' /\ d2q d' <= q)%Q /\ ~ (q <= d2q d' /\ d2q d' < d2q d)%Q.

Lemma adj_exact d : is_double d -> adj d (d2q d).
Proof. intros H. split; auto. intros d' _. split; intros [H1 H2]; lra. Qed.

Lemma adj_Qeq d q q' : (q == q')%Q -> adj d q -> adj d q'.
Proof.
  intros E [H1 H2]. split; auto. intros d' Hd'. destruct (H2 d' Hd') as [A B].
  split; intros [X Y]; [apply A|apply B]; split; lra.
Qed.

Lemma d2q_dneg d : (d2q (dneg d) == - d2q d)%Q.
Proof.
  destruct d as [m e]. unfold dneg, d2q. cbn [fst snd]. destruct (0 <=? e)%Z.
  - unfold Qeq, inject_Z. simpl. lia.
  - reflexivity.
Qed.

Lemma is_double_dneg d : is_double d -> is_double (dneg d).
Proof. destruct d as [m e]. unfold is_double, is_doubleb, dneg. cbn [fst snd]. now rewrite Z.abs_opp. Qed.

Lemma dneg_invol d : dneg (dneg d) = d.
Proof. destruct d as [m e]. unfold dneg. cbn [fst snd]. now rewrite Z.opp_involutive. Qed.

Lemma adj_neg d q : adj d q -> adj (dneg d) (- q)%Q.
Proof.
  intros [H1 H2]. split. { now apply is_double_dneg. }
  intros d' Hd'. destruct (H2 (dneg d') (is_double_dneg _ Hd')) as [A B].
  pose proof (d2q_dneg d) as E1. pose proof (d2q_dneg d') as E2.
  split; intros [X Y]; [apply B|apply A]; split; lra.
Qed.

Lemma is_double_zero : is_double dzero.
Proof. reflexivity. Qed.
Lemma is_double_inf : is_double dinf.
Proof. reflexivity. Qed.
Lemma adj_zero : adj dzero qzero.
Proof. apply (adj_exact dzero). reflexivity. Qed.
Lemma adj_inf : adj dinf (d2q dinf).
Proof. apply adj_exact. reflexivity. Qed.

Lemma dnz_d2q d : dnz d = qnz (d2q d).
Proof.
  destruct d as [m e]. unfold dnz, qnz, d2q. cbn [fst]. destruct (0 <=? e)%Z eqn:E.
  - simpl. apply Z.leb_le in E. f_equal.
    assert (0 < 2 ^ e)%Z as P by (apply Z.pow_pos_nonneg; lia).
    destruct (Z.eqb_spec m 0) as [->|N]; [reflexivity|].
    symmetry. apply Z.eqb_neq. intros C. apply Z.mul_eq_0 in C. lia.
  - reflexivity.
Qed.

Lemma sgn_adj mx d q : adj d q -> adj (sgn dneg mx d) (sgn Qopp mx q).
Proof. destruct mx; simpl; auto. apply adj_neg. Qed.

(* a witness that a double is not adjacent *)
Lemma not_adj_between d q d' : is_double d' -> (d2q d < d2q d' /\ d2q d' <= q)%Q -> ~ adj d q.
Proof. intros Hd' H [_ A]. destruct (A d' Hd') as [X _]. now apply X. Qed.

(* the two sides of the rows, and the two bounds of the columns, have the same length *)
Definition WF2 {T} (q : lp T) : Prop := length (lhs q) = length (rhs q) /\ length (lo q) = length (up q).

Lemma WF2_papply {T} (tz : T) tneg nz ti p (q : lp T) :
  WF2 q -> prim_ok (nrows q) (ncols q) p = true -> WF2 (papply tz tneg nz ti p q).
Proof.
  intros [H1 H2] Hok. unfold WF2, nrows, ncols in *.
  destruct p as [[[a b] v]|[[[o a] b] v]|i [[a b] v]|j [[[o a] b] v]|i x|i x|j x|j x|j x|xs|xs|xs|xs|xs|i j x|i|j|m|m| |mx|x];
    simpl in *; rewrite ?app_length, ?repeat_length, ?setn_length; simpl; auto; try lia;
    try (apply Nat.eqb_eq in Hok; split; lia);
    split; auto using move_last_length_eq, keepm_length_eq.
Qed.

Lemma WF2_applys {T} (tz : T) tneg nz ti ps : forall q : lp T,
  WF2 q -> prims_ok (papply tz tneg nz ti) ps q = true -> WF2 (applys (papply tz tneg nz ti) ps q).
Proof.
  induction ps as [|p ps IH]; intros q Hq Hok; simpl; auto.
  simpl in Hok. apply andb_prop in Hok as [H1 H2]. unfold applys in *. simpl. apply IH; auto. now apply WF2_papply.
Qed.

Lemma complete_prefix full tys rest : full = tys ++ rest -> complete full tys = full.
Proof. intros ->. unfold complete. now rewrite skipn_app, skipn_all, Nat.sub_diag. Qed.

Lemma complete_same x : complete x x = x.
Proof. apply (complete_prefix x x []). now rewrite app_nil_r. Qed.

Lemma overwrite_same_length full tys : length tys = length full -> overwrite full tys = full.
Proof. intros H. unfold overwrite. rewrite <- H, skipn_all. apply app_nil_r. Qed.

Lemma map2_repeat {A B C} (f : A -> B -> C) x y n : map2 f (repeat x n) (repeat y n) = repeat (f x y) n.
Proof. induction n; simpl; auto. now rewrite IHn. Qed.

Lemma setn_self_nth {A} i (l : list A) v d : nth i (setn i v l) d = v \/ length l <= i.
Proof. destruct (Nat.lt_ge_cases i (length l)); [left; now apply nth_setn_eq|right; auto]. Qed.

Lemma setn_nth_setn {A} i (l : list A) v d : setn i (nth i (setn i v l) d) l = setn i v l.
Proof.
  destruct (Nat.lt_ge_cases i (length l)) as [H|H].
  - now rewrite nth_setn_eq.
  - now rewrite !setn_oob by (rewrite ?setn_length; auto).
Qed.

Lemma setn_setn {A} i (x y : A) l : setn i y (setn i x l) = setn i y l.
Proof. revert i; induction l; intros [|i]; simpl; auto. now rewrite IHl. Qed.

Lemma move_last_length {A} (d : A) i l : i < length l -> length (move_last d i l) = length l - 1.
Proof.
  intros H. unfold move_last. destruct (i =? length l - 1).
  - rewrite firstn_length. lia.
  - rewrite setn_length, firstn_length. lia.
Qed.

Lemma move_last_default {A} (d d' : A) k l : l <> [] -> move_last d k l = move_last d' k l.
Proof.
  intros H. unfold move_last. destruct (k =? length l - 1); auto.
  f_equal. apply nth_indep. destruct l; [congruence|simpl; lia].
Qed.

Lemma ty_remove_move_last i (l : list rtype) : i < length l -> ty_remove i (length l - 1) l = move_last TFree i l.
Proof.
  intros H. unfold ty_remove, move_last.
  destruct (Nat.eqb_spec i (length l - 1)) as [E|N].
  - rewrite E. now rewrite Nat.ltb_irrefl.
  - assert (i < length l - 1) as L by lia. apply Nat.ltb_lt in L as L'. rewrite L'.
    now apply firstn_setn.
Qed.

(* removeRow / removeCol: the last type moves into the hole, as the last row / column does *)
Lemma ty_remove_map2 {A B} (c : A -> B -> rtype) da db i l r : length l = length r -> i < length l ->
  ty_remove i (length (move_last da i l)) (map2 c l r) = map2 c (move_last da i l) (move_last db i r).
Proof.
  intros H Hi. rewrite move_last_length, <- (map2_length c l r H) by auto.
  rewrite ty_remove_move_last by (rewrite map2_length; auto). rewrite map2_move_last by auto.
  apply move_last_default. destruct l, r; simpl in *; try lia; discriminate.
Qed.

Definition is_add (p : prim Q) : bool := match p with PAddRow _ | PAddCol _ => true | _ => false end.

Section Types.
  Variable inf : Q.
  Notation cr := (class_rows inf).
  Notation cc := (class_cols inf).

  (* an add only appends to the classification from scratch *)
  Lemma class_add p (q : qlp) : WF2 q -> is_add p = true ->
    (exists r, cr (qapply p q) = cr q ++ r) /\ (exists r, cc (qapply p q) = cc q ++ r).
  Proof.
    intros [H1 H2] A.
    destruct p as [[[a b] v]|[[[o a] b] v]| | | | | | | | | | | | | | | | | | | | ]; try discriminate A;
      unfold class_rows, class_cols, qapply; cbn [papply lhs rhs lo up]; rewrite !map2_app by auto; eauto.
  Qed.

  Lemma adds_prefix ps : forallb is_add ps = true -> forall q : qlp, WF2 q -> prims_ok qapply ps q = true ->
    (exists r, cr (qapplys ps q) = cr q ++ r) /\ (exists r, cc (qapplys ps q) = cc q ++ r).
  Proof.
    induction ps as [|p ps IH]; intros Ha q Hq Hok.
    - split; exists []; simpl; now rewrite app_nil_r.
    - simpl in Ha, Hok. apply andb_prop in Ha as [Hp Ha]. apply andb_prop in Hok as [Hok1 Hok2].
      destruct (class_add p q Hq Hp) as [[r1 F1] [r2 F2]].
      destruct (IH Ha (qapply p q) (WF2_papply _ _ _ _ _ _ Hq Hok1) Hok2) as [[s1 E1] [s2 E2]].
      unfold qapplys, applys in *. cbn [fold_left]. rewrite E1, E2, F1, F2.
      split; eexists; rewrite <- app_assoc; reflexivity.
  Qed.

  (* which update of the type arrays the code makes after which calls on the rational LP *)
  Inductive ty_ok (q : qlp) : list (prim Q) -> tyupd -> Prop :=
  | ty_adds ps : forallb is_add ps = true -> ty_ok q ps TComplete
  | ty_chgrow_set i a b v : ty_ok q [PChgRow i (a, b, v)] (TRowSet i (classQ inf a b))
  | ty_chgcol_set j o a b v : ty_ok q [PChgCol j (o, a, b, v)] (TColSet j (classQ inf a b))
  | ty_chgrow_at i r : ty_ok q [PChgRow i r] (TRowAtC i)
  | ty_chgcol_at j c : ty_ok q [PChgCol j c] (TColAtC j)
  | ty_range i a b : ty_ok q [PLhs i a; PRhs i b] (TRowAt i)
  | ty_bnd j a b : ty_ok q [PLo j a; PUp j b] (TColAt j)
  | ty_lhs i x : ty_ok q [PLhs i x] (TRowAt i)
  | ty_lo j x : ty_ok q [PLo j x] (TColAt j)
  | ty_rhs i x : ty_ok q [PRhs i x] (TRowAt i)
  | ty_up j x : ty_ok q [PUp j x] (TColAt j)
  | ty_lhsV xs : ty_ok q [PLhsV xs] TRowsAll
  | ty_rhsV xs : ty_ok q [PRhsV xs] TRowsAll
  | ty_rangeV a b : ty_ok q [PLhsV a; PRhsV b] TRowsAll
  | ty_loV xs : ty_ok q [PLoV xs] TColsAll
  | ty_upV xs : ty_ok q [PUpV xs] TColsAll
  | ty_bndV a b : ty_ok q [PLoV a; PUpV b] TColsAll
  | ty_rhs_prefix xs : ty_ok q [PRhsV (xs ++ skipn (length xs) (rhs q))] (TRowsPrefix (length xs))
  | ty_remrow i : ty_ok q [PRemRow i] (TRemRow i)
  | ty_remcol j : ty_ok q [PRemCol j] (TRemCol j)
  | ty_remrows m : ty_ok q [PRemRows m] (TRemRows m)
  | ty_remcols m : ty_ok q [PRemCols m] (TRemCols m)
  | ty_obj j x : ty_ok q [PObj j x] TNone
  | ty_objV xs : ty_ok q [PObjV xs] TNone
  | ty_elem i j x : ty_ok q [PElem i j x] TNone
  | ty_clear pm : ty_ok q [PClear; PSense pm] TClear.

  (* ... and that update turns the classification of the old bounds into the classification of the new ones; rows and
     columns alike, the type array is [map2 (classQ inf)] of two lists that receive the same edit *)
  Theorem ty_ok_sound (q : qlp) ps u : WF2 q -> ty_ok q ps u -> prims_ok qapply ps q = true ->
    ty_apply inf (applys qapply ps q) u (cr q, cc q) = (cr (applys qapply ps q), cc (applys qapply ps q)).
  Proof.
    intros W T Hok. destruct T as [ps A|i a b v|j o a b v|i [[a b] v]|j [[[o a] b] v]|i a b|j a b|i x|j x|i x|j x
                                   |xs|xs|a b|xs|xs|a b|xs|i|j|m|m|j x|xs|i j x|pm].
    1: { destruct (adds_prefix ps A q W Hok) as [[r1 E1] [r2 E2]]. simpl. f_equal; eapply complete_prefix; eauto. }
    all: destruct W as [W1 W2]; simpl in Hok;
      repeat match goal with
             | X : _ && _ = true |- _ => apply andb_prop in X as [? ?]
             | X : (_ =? _) = true |- _ => apply Nat.eqb_eq in X
             | X : (_ <? _) = true |- _ => apply Nat.ltb_lt in X
             end;
      unfold applys; simpl; unfold class_rows, class_cols, nrows, ncols in *; simpl.
    (* both sides of row i / both bounds of column j are set *)
    1-6: rewrite map2_setn by auto; now rewrite ?setn_nth_setn, ?complete_same.
    (* one of them is set *)
    1-2: rewrite (map2_setn_l _ _ _ _ _ qzero) by auto; now rewrite setn_nth_setn.
    1-2: rewrite (map2_setn_r _ _ _ _ _ qzero) by auto; now rewrite setn_nth_setn.
    (* a whole vector is replaced by one of the same length *)
    1-6: rewrite overwrite_same_length; auto; rewrite !map2_length; auto; lia.
    1: { (* ty_rhs_prefix *) rewrite app_length, skipn_length in H. f_equal. unfold overwrite.
      rewrite firstn_length, Nat.min_l by (rewrite map2_length; rewrite ?app_length, ?skipn_length; lia).
      rewrite <- (firstn_skipn (length xs) (map2 _ (lhs q) (xs ++ _))) at 2. f_equal.
      rewrite !map2_skipn. f_equal. now rewrite skipn_app, skipn_all, Nat.sub_diag. }
    1-2: f_equal; now apply ty_remove_map2.
    1-2: unfold ty_compact; now rewrite map2_keepm.
    (* no bound changes, or everything is cleared *)
    all: reflexivity.
  Qed.

  Lemma Q_types e pm (qo : qop) (q : qlp) :
    ty_ok q (qprims e pm (nrows q) (ncols q) q qo) (qtyupd inf (nrows q) (ncols q) qo).
  Proof.
    destruct qo as [g r|g rs|g c|g cs|i [[a b] v]|j [[[o a] b] v]|i x|xs|i x|xs|xs|i a b|a b|j x|xs|j x|xs|j a b|a b|j x|xs|g i j x
                    |i|j|perm|perm|idx|idx|a b|a b| ]; cbn [qprims qtyupd]; constructor;
      auto using forallb_map_true.
  Qed.

  Lemma R_types e pm m n (ro : rop) (q : qlp) : ty_ok q (map (prim_map d2q) (rprims e pm m n ro)) (rtyupd m n ro).
  Proof.
    destruct ro as [[[a b] v]|rs|[[[o a] b] v]|cs|i [[a b] v]|j [[[o a] b] v]|i x|xs|i x|xs|i a b|a b|j x|xs|j x|xs|j a b|a b|j x|xs|i j x
                    |i|j|perm|perm|idx|idx|a b|a b| ]; cbn [rprims rtyupd map prim_map]; constructor; auto.
    - rewrite map_map. apply forallb_map_true. now intros [[a b] v].
    - rewrite map_map. apply forallb_map_true. now intros [[[o a] b] v].
  Qed.
End Types.

Lemma sget_svec_map {A B} (tz' : B) (f : A -> B) j (v : svec A) :
  sget tz' j (svec_map f v) = match find (fun p => fst p =? j) v with Some p => f (snd p) | None => tz' end.
Proof. unfold sget, svec_map. induction v as [|p v IH]; simpl; auto. destruct (fst p =? j); auto. Qed.

Lemma vdim_map_d2q v : vdim dnz v = vdim qnz (svec_map d2q v).
Proof. induction v as [|p v IH]; simpl; auto. now rewrite dnz_d2q, IH. Qed.

Lemma svec_dy_ok_find v j p : svec_dy_ok v = true -> find (fun p => fst p =? j) v = Some p -> is_double (snd p).
Proof.
  intros H F. apply find_some in F as [F _]. unfold svec_dy_ok in H. rewrite forallb_forall in H. now apply H.
Qed.

Lemma nodupb_not_in x l : nodupb (x :: l) = true -> ~ In x l.
Proof.
  simpl. intros H C. apply andb_prop in H as [H _]. apply negb_true_iff in H.
  assert (existsb (Nat.eqb x) l = true) as E. { apply existsb_exists. exists x. split; auto. apply Nat.eqb_refl. }
  congruence.
Qed.

Lemma find_none_not_in {A} (v : svec A) j : ~ In j (map fst v) -> forall P, find (fun p => fst p =? j) (filter P v) = None.
Proof.
  intros H P. induction v as [|a v IH]; simpl; auto. simpl in H.
  destruct (P a); simpl.
  - destruct (Nat.eqb_spec (fst a) j) as [E|N]; [exfalso; apply H; auto|]. apply IH. tauto.
  - apply IH. tauto.
Qed.

Lemma find_filter_nodup {A} (v : svec A) j P : nodupb (map fst v) = true ->
  find (fun p => fst p =? j) (filter P v) =
  match find (fun p => fst p =? j) v with Some p => if P p then Some p else None | None => None end.
Proof.
  induction v as [|a v IH]; intros H; simpl; auto.
  simpl in H. pose proof (nodupb_not_in _ _ H) as Hn. apply andb_prop in H as [_ H].
  destruct (Nat.eqb_spec (fst a) j) as [E|N].
  - destruct (P a); simpl.
    + rewrite E, Nat.eqb_refl. reflexivity.
    + apply find_none_not_in. now rewrite <- E.
  - destruct (P a); simpl.
    + destruct (Nat.eqb_spec (fst a) j); [contradiction|]. now apply IH.
    + now apply IH.
Qed.

(* the index set of the nonzeros does not change when the zeros are dropped first *)
Lemma vdim_all_clean (f : Q -> dy) v : vdim (fun _ => true) (svec_map f (sclean_q v)) = vdim qnz v.
Proof.
  unfold sclean_q. induction v as [|p v IH]; simpl; auto.
  destruct (qnz (snd p)); simpl; now rewrite IH.
Qed.

Lemma qnz_false_zero q : qnz q = false -> (q == 0)%Q.
Proof. unfold qnz. intros H. apply negb_false_iff in H. apply Z.eqb_eq in H. unfold Qeq. simpl. lia. Qed.

(* "every entry is a double" as an instance of lp_rel, so that papply_rel applies: the second argument is not read *)
Definition dbl_rel (d : dy) (_ : dy) : Prop := is_double d.
Definition RealOK (l : rlp) : Prop := lp_rel dbl_rel l l.

Lemma forallb_Forall2_dbl xs : forallb dy_ok xs = true -> Forall2 dbl_rel xs xs.
Proof.
  intros H. unfold dbl_rel. apply Forall2_diag. apply Forall_forall.
  rewrite forallb_forall in H. exact H.
Qed.

Lemma sv_dbl v : svec_dy_ok v = true -> sv_rel dbl_rel dzero dzero v v.
Proof.
  intros H j. unfold dbl_rel, sget. destruct (find _ v) eqn:F; [|reflexivity]. eapply svec_dy_ok_find; eauto.
Qed.

Lemma prim_dbl nz p : prim_dy_ok p = true -> prim_rel dbl_rel dzero dzero nz nz p p.
Proof.
  unfold dy_ok in *.
  destruct p as [[[a b] v]|[[[o a] b] v]|i [[a b] v]|j [[[o a] b] v]|i x|i x|j x|j x|j x|xs|xs|xs|xs|xs|i j x|i|j|m|m| |mx|x];
    simpl; intros H; repeat match goal with X : _ && _ = true |- _ => apply andb_prop in X; destruct X end;
    constructor; unfold rs_rel, cs_rel, dbl_rel; simpl; repeat match goal with |- _ /\ _ => split end; auto using sv_dbl, forallb_Forall2_dbl.
Qed.

Lemma rapply_RealOK nz p l : prim_dy_ok p = true -> RealOK l -> RealOK (papply dzero dneg nz dinf p l).
Proof.
  intros Hp Hl. unfold RealOK. eapply papply_rel; eauto.
  - reflexivity.
  - intros x y Hx. now apply is_double_dneg.
  - reflexivity.
  - now apply prim_dbl.
Qed.

Lemma applys_RealOK nz ps : forallb prim_dy_ok ps = true -> forall l, RealOK l ->
  RealOK (applys (papply dzero dneg nz dinf) ps l).
Proof.
  induction ps as [|p ps IH]; intros H l Hl; simpl; auto.
  simpl in H. apply andb_prop in H as [H1 H2]. unfold applys in *. simpl. apply IH; auto. now apply rapply_RealOK.
Qed.

Lemma RealOK_empty : RealOK (empty_lp dzero).
Proof. constructor; simpl; auto. reflexivity. Qed.

Lemma sv_d2q v : svec_dy_ok v = true -> sv_rel adj dzero qzero v (svec_map d2q v).
Proof.
  intros H j. rewrite sget_svec_map. unfold sget. destruct (find _ v) eqn:F.
  - apply adj_exact. eapply svec_dy_ok_find; eauto.
  - apply adj_zero.
Qed.

Lemma Forall2_adj_d2q xs : forallb dy_ok xs = true -> Forall2 adj xs (map d2q xs).
Proof. intros H. apply Forall2_map_r. intros x Hx. apply adj_exact. rewrite forallb_forall in H. now apply H. Qed.

Lemma prim_d2q p : prim_dy_ok p = true -> prim_rel adj dzero qzero dnz qnz p (prim_map d2q p).
Proof.
  unfold dy_ok in *.
  destruct p as [[[a b] v]|[[[o a] b] v]|i [[a b] v]|j [[[o a] b] v]|i x|i x|j x|j x|j x|xs|xs|xs|xs|xs|i j x|i|j|m|m| |mx|x];
    simpl; intros H; repeat match goal with X : _ && _ = true |- _ => apply andb_prop in X; destruct X end;
    constructor; unfold rs_rel, cs_rel; simpl; repeat match goal with |- _ /\ _ => split end; auto using sv_d2q, Forall2_adj_d2q, adj_exact, vdim_map_d2q.
Qed.

Lemma prims_d2q ps : forallb prim_dy_ok ps = true -> Forall2 (prim_rel adj dzero qzero dnz qnz) ps (map (prim_map d2q) ps).
Proof.
  induction ps as [|p ps IH]; simpl; intros H; constructor.
  - apply andb_prop in H as [H _]. now apply prim_d2q.
  - apply andb_prop in H as [_ H]. now apply IH.
Qed.

Lemma adj_applys nzr nzq ps ps' l l' :
  Forall2 (prim_rel adj dzero qzero nzr nzq) ps ps' -> lp_rel adj l l' ->
  lp_rel adj (applys (papply dzero dneg nzr dinf) ps l) (applys (papply qzero Qopp nzq (d2q dinf)) ps' l').
Proof. intros. eapply applys_rel; eauto using adj_zero, adj_neg, adj_inf. Qed.

(* which zero test decides about implicit columns / rows in the two LPs for a call of the rational interface *)
Definition nzr_of (o : qop) : dy -> bool :=
  match o with QAddRow true _ | QAddCol true _ => fun _ => true | _ => dnz end.
Lemma rap_of_eq o : rap_of o = papply dzero dneg (nzr_of o) dinf.
Proof. destruct o; try reflexivity; destruct g; reflexivity. Qed.
Lemma vdim_all_map {A B} (f : A -> B) (v : svec A) : vdim (fun _ => true) (svec_map f v) = vdim (fun _ => true) v.
Proof. induction v as [|p v IH]; simpl; auto. now rewrite IH. Qed.

Lemma svec_ok_nodup {T} bound (v : svec T) : svec_ok bound v = true -> nodupb (map fst v) = true.
Proof. intros H. now apply andb_prop in H. Qed.

Lemma Forall2_map_same_in {A B B'} (S : B -> B' -> Prop) (P : A -> Prop) (f : A -> B) (f' : A -> B') l :
  Forall P l -> (forall x, P x -> S (f x) (f' x)) -> Forall2 S (map f l) (map f' l).
Proof. intros H Hf. induction H; simpl; constructor; auto. Qed.

Definition keeps_sense {T} (p : prim T) : bool := match p with PClear | PSense _ => false | _ => true end.

Lemma lmax_papply_keep {T} (tz : T) tneg tnz tinf (p : prim T) l :
  keeps_sense p = true -> lmax (papply tz tneg tnz tinf p l) = lmax l.
Proof.
  destruct p as [[[a b] v]|[[[o a] b] v]|i [[a b] v]|j [[[o a] b] v]|i x|i x|j x|j x|j x|xs|xs|xs|xs|xs|i j x|i|j|m|m| |mx|x];
    simpl; intros H; try discriminate; reflexivity.
Qed.

Lemma lmax_applys_keep {T} (tz : T) tneg tnz tinf ps : forall l,
  forallb keeps_sense ps = true -> lmax (applys (papply tz tneg tnz tinf) ps l) = lmax l.
Proof.
  induction ps as [|p ps IH]; intros l H; simpl; auto.
  simpl in H. apply andb_prop in H as [H1 H2]. unfold applys in *. simpl. rewrite IH; auto. now apply lmax_papply_keep.
Qed.

Section Sync.
  Variable rnd : rkind -> Q -> dy.
  Hypothesis rnd_adj : forall k q, adj (rnd k q) q.

  Lemma sv_rnd v : sv_rel adj dzero qzero (svec_map (rnd RConv) v) v.
  Proof.
    intros j. rewrite sget_svec_map. unfold sget. destruct (find _ v); [apply rnd_adj|apply adj_zero].
  Qed.

  Lemma sv_rnd_clean v : nodupb (map fst v) = true -> sv_rel adj dzero qzero (svec_map (rnd RConv) (sclean_q v)) v.
  Proof.
    intros H j. rewrite sget_svec_map. unfold sclean_q. rewrite find_filter_nodup by auto. unfold sget.
    destruct (find _ v) as [p|]; [|apply adj_zero]. destruct (qnz (snd p)) eqn:E; [apply rnd_adj|].
    apply (adj_Qeq dzero qzero); [symmetry; now apply qnz_false_zero|apply adj_zero].
  Qed.

  Lemma Forall2_rnd xs : Forall2 adj (map (rnd RConv) xs) xs.
  Proof. apply Forall2_map_l. intros; apply rnd_adj. Qed.

  (* rounding leaves the dimension the vector asks for unchanged: no nonzero entry beyond it rounds to 0.0 *)
  Definition vd_ok (v : svec Q) : Prop := vdim dnz (svec_map (rnd RConv) v) = vdim qnz v.
  (* the calls of the rational interface for which the two LPs provably stay related *)
  Definition benign_q (s : state) (q : qlp) (qo : qop) : Prop :=
    match qo with
    | QAddRow false (_, _, v) => vd_ok v
    | QAddRows _ rs => Forall (fun r => vd_ok (snd r)) rs
    | QAddCol false (_, _, _, v) => vd_ok v
    | QAddCol true _ => pmax s = lmax q
    | QAddCols false cs => Forall (fun c => vd_ok (snd c)) cs
    | QAddCols true cs => Forall (fun c => vd_ok (snd c)) cs /\ pmax s = lmax q
    | QElem false _ _ x => keep_q (eps s) x = keep_r (eps s) (rnd RConv x)
    | QElem true _ _ x => qnz x = keep_r (eps s) (rnd RGetD x)
    | _ => True
    end.

  Lemma obj_g_adj pm o : adj (sgn dneg pm (rnd RConv (sgn Qopp pm o))) o.
  Proof.
    destruct pm; simpl; [apply rnd_adj|].
    apply (adj_Qeq _ (- - o)%Q); [ring|]. apply adj_neg. apply rnd_adj.
  Qed.

  Lemma rs_rnd_rel a b v : rs_rel adj dzero qzero (rnd RConv a, rnd RConv b, svec_map (rnd RConv) v) (a, b, v).
  Proof. simpl. split; [apply rnd_adj|split; [apply rnd_adj|apply sv_rnd]]. Qed.
  Lemma rs_rnd_clean_rel a b v : nodupb (map fst v) = true ->
    rs_rel adj dzero qzero (rnd RConv a, rnd RConv b, svec_map (rnd RConv) (sclean_q v)) (a, b, v).
  Proof. intros H. simpl. split; [apply rnd_adj|split; [apply rnd_adj|now apply sv_rnd_clean]]. Qed.
  Lemma cs_rnd_rel o a b v : cs_rel adj dzero qzero (rnd RConv o, rnd RConv a, rnd RConv b, svec_map (rnd RConv) v) (o, a, b, v).
  Proof. simpl. split; [apply rnd_adj|split; [apply rnd_adj|split; [apply rnd_adj|apply sv_rnd]]]. Qed.
  Lemma cs_rnd_clean_rel o a b v : nodupb (map fst v) = true ->
    cs_rel adj dzero qzero (rnd RConv o, rnd RConv a, rnd RConv b, svec_map (rnd RConv) (sclean_q v)) (o, a, b, v).
  Proof. intros H. simpl. split; [apply rnd_adj|split; [apply rnd_adj|split; [apply rnd_adj|now apply sv_rnd_clean]]]. Qed.

  Local Hint Constructors prim_rel Forall2 : prel.

  Lemma qprims_rel s q qo :
    prims_ok (qap_of qo) (qprims (eps s) (pmax s) (nrows q) (ncols q) q qo) q = true ->
    benign_q s q qo ->
    Forall2 (prim_rel adj dzero qzero (nzr_of qo) qnz)
            (qrprims rnd (eps s) (nrows q) (ncols q) (applys (qap_of qo) (qprims (eps s) (pmax s) (nrows q) (ncols q) q qo) q) (pmax s) qo)
            (qprims (eps s) (pmax s) (nrows q) (ncols q) q qo).
  Proof.
    intros Hok Hb.
    destruct qo as [g [[a b] v]|g rs|g [[[o a] b] v]|g cs|i [[a b] v]|j [[[o a] b] v]|i x|xs|i x|xs|xs|i a b|a b|j x|xs|j x|xs|j a b|a b|j x|xs|g i j x
                    |i|j|perm|perm|idx|idx|a b|a b| ]; cbn [qprims qrprims].
    22: { constructor; [|constructor]. constructor. simpl in Hb. unfold elem_r, elem_q. destruct g.
          + rewrite <- Hb. destruct (qnz x) eqn:E; [apply rnd_adj|].
            apply (adj_Qeq dzero qzero); [|apply adj_zero]. reflexivity.
          + rewrite <- Hb. destruct (keep_q (eps s) x); [apply rnd_adj|apply adj_zero]. }
    (* every other call hands each of its numbers to the real LP through [rnd RConv] *)
    5-30: unfold applys; simpl; eauto 7 using rnd_adj, Forall2_rnd, rs_rnd_rel, cs_rnd_rel with prel.
    - destruct g.
      + simpl in Hok. rewrite andb_true_r in Hok. apply svec_ok_nodup in Hok.
        constructor; [|constructor]. constructor; [now apply rs_rnd_clean_rel|apply vdim_all_clean].
      + constructor; [|constructor]. constructor; [apply rs_rnd_rel|exact Hb].
    - simpl in Hb. eapply Forall2_map_same_in; [exact Hb|]. intros [[a b] v] Hv.
      destruct g; (constructor; [apply rs_rnd_rel|exact Hv]).
    - destruct g.
      + simpl in Hok. rewrite andb_true_r in Hok. apply svec_ok_nodup in Hok.
        simpl in Hb. constructor; [|constructor]. constructor; [|apply vdim_all_clean].
        simpl. split; [|split; [apply rnd_adj|split; [apply rnd_adj|now apply sv_rnd_clean]]].
        unfold applys. simpl. rewrite Hb. apply obj_g_adj.
      + constructor; [|constructor]. constructor; [apply cs_rnd_rel|exact Hb].
    - destruct g.
      + simpl in Hb. destruct Hb as [Hv Hs].
        unfold qap_of, qapply. rewrite lmax_applys_keep by (apply forallb_map_true; reflexivity). rewrite Hs.
        eapply Forall2_map_same_in; [exact Hv|]. intros [[[o a] b] v] Hv'. constructor; [|exact Hv'].
        simpl. split; [apply obj_g_adj|split; [apply rnd_adj|split; [apply rnd_adj|apply sv_rnd]]].
      + simpl in Hb. eapply Forall2_map_same_in; [exact Hb|]. intros [[[o a] b] v] Hv.
        constructor; [apply cs_rnd_rel|exact Hv].
  Qed.
End Sync.

Definition types_ok (s : state) (q : qlp) : Prop :=
  rty s = class_rows (d2q (pinf s)) q /\ cty s = class_cols (d2q (pinf s)) q.

(* the rational LP exists, the real LP is its coefficient-wise floating-point image (same dimensions, sense; offset
   adjacent), and the type arrays are the classification of the rational bounds with threshold INFTY *)
Definition InSync (s : state) : Prop :=
  exists q, ql s = Some q /\ lp_rel adj (rl s) q /\ types_ok s q /\ WF2 q.

Definition stays_auto (o : op) : Prop :=
  match o with SetMode Auto => True | SetMode _ => False | _ => True end.

Lemma lp_rel_map_d2q (l : rlp) : RealOK l -> lp_rel adj l (lp_map d2q l).
Proof.
  intros [H1 H2 H3 H4 H5 H6 H7 H8]. unfold dbl_rel in *.
  assert (forall xs, Forall2 (fun d _ : dy => is_double d) xs xs -> Forall2 adj xs (map d2q xs)) as F.
  { intros xs H. apply Forall2_map_r. intros x Hx. apply adj_exact.
    apply Forall2_diag in H. rewrite Forall_forall in H. now apply H. }
  constructor; simpl; auto.
  - apply Forall2_map_r. intros r Hr. apply F.
    apply Forall2_diag in H6. rewrite Forall_forall in H6. now apply H6.
  - now apply adj_exact.
Qed.

Lemma WF2_lp_map {A B} (f : A -> B) (l : lp A) : WF2 l -> WF2 (lp_map f l).
Proof. intros [A1 B1]. unfold WF2. simpl. now rewrite !map_length. Qed.

Lemma WF2_map_d2q (l : rlp) : WF2 l -> WF2 (lp_map d2q l).
Proof. apply WF2_lp_map. Qed.

(* what holds of every reachable state, in every mode: the real LP consists of doubles, both LPs are well formed, and a
   rational LP exists outside SYNCMODE_ONLYREAL *)
Definition Inv (s : state) : Prop :=
  RealOK (rl s) /\ WF2 (rl s) /\ (forall q, ql s = Some q -> WF2 q) /\ (mode s <> OnlyReal -> ql s <> None).

Lemma WF2_empty {T} (z : T) : WF2 (empty_lp z).
Proof. split; reflexivity. Qed.

(* a property of the rational LP, if there is one *)
Lemma ql_forall (P : qlp -> Prop) (o : option qlp) :
  (forall q, o = Some q -> P q) <-> match o with Some q => P q | None => True end.
Proof.
  destruct o as [q|]; split; auto; try discriminate.
  intros H q' E. now injection E as <-.
Qed.

(* [Inv] of a state given by its fields: the last two clauses say that the rational LP is well formed, and missing
   only in SYNCMODE_ONLYREAL *)
Lemma Inv_mk r q rt ct md pi pm e : RealOK r -> WF2 r ->
  match q with Some q' => WF2 q' | None => md = OnlyReal end -> Inv (mkSt r q rt ct md pi pm e).
Proof.
  intros A B C. split; [exact A|split; [exact B|]]. cbn [ql mode]. destruct q as [q'|]; split.
  - intros ? E. now injection E as <-.
  - discriminate.
  - discriminate.
  - congruence.
Qed.

Lemma Inv_ql s : Inv s -> match ql s with Some q => WF2 q | None => mode s = OnlyReal end.
Proof.
  intros (_ & _ & C & D). destruct (ql s); [now apply C|].
  destruct (mode s); auto; exfalso; apply D; auto; discriminate.
Qed.

(* the rational LP and the type arrays after a call, given that the update made is right for the calls on the rational LP *)
Lemma types_with_lps s (q : qlp) ps u : types_ok s q -> WF2 q -> ty_ok (d2q (pinf s)) q ps u ->
  prims_ok qapply ps q = true ->
  let q' := applys qapply ps q in
  WF2 q' /\ forall r, types_ok (with_lps s r (Some q') (ty_apply (d2q (pinf s)) q' u (rty s, cty s))) q'.
Proof.
  intros [T1 T2] W T Hok. cbv zeta. split; [now apply WF2_applys|]. intros r.
  unfold types_ok, with_lps. cbn [rty cty pinf]. rewrite T1, T2, (ty_ok_sound _ _ _ _ W T Hok). split; reflexivity.
Qed.

Section Steps.
  Variable rnd : rkind -> Q -> dy.

  (* [step] and [valid_op] case by case, for the two interfaces *)
  Lemma valid_OR s ro : valid_op rnd s (OR ro) = true ->
    let ps := rprims (eps s) (pmax s) (nrows (rl s)) (ncols (rl s)) ro in
    forallb prim_dy_ok ps = true /\ rprims_ok ps (rl s) = true /\
    (forall q, mode s = Auto -> ql s = Some q -> qprims_ok (map (prim_map d2q) ps) q = true).
  Proof.
    intros Hv. unfold valid_op in Hv. cbv zeta in Hv.
    apply andb_prop in Hv as [Hv H4]. apply andb_prop in Hv as [Hv _]. apply andb_prop in Hv as [H1 H2].
    repeat split; auto. intros q Hm Hq. now rewrite Hm, Hq in H4.
  Qed.

  Lemma valid_OQ s qo q : mode s <> OnlyReal -> ql s = Some q -> valid_op rnd s (OQ qo) = true ->
    let ps := qprims (eps s) (pmax s) (nrows q) (ncols q) q qo in
    prims_ok qapply ps q = true /\
    (mode s = Auto -> prims_ok (rap_of qo) (qrprims rnd (eps s) (nrows q) (ncols q) (applys qapply ps q) (pmax s) qo) (rl s) = true).
  Proof.
    intros Hm Hq Hv. unfold valid_op in Hv. rewrite Hq in Hv.
    destruct (mode s); [congruence| |]; apply andb_prop in Hv as [Hv H3]; apply andb_prop in Hv as [H1 _];
      split; auto; discriminate.
  Qed.

  Lemma step_OR_cases s ro :
    let ps := rprims (eps s) (pmax s) (nrows (rl s)) (ncols (rl s)) ro in
    (exists q, mode s = Auto /\ ql s = Some q /\
       step rnd s (OR ro) = with_lps s (rapplys ps (rl s)) (Some (qapplys (map (prim_map d2q) ps) q))
                              (ty_apply (d2q (pinf s)) (qapplys (map (prim_map d2q) ps) q)
                                        (rtyupd (nrows (rl s)) (ncols (rl s)) ro) (rty s, cty s))) \/
    step rnd s (OR ro) = with_lps s (rapplys ps (rl s)) (ql s) (rty s, cty s).
  Proof.
    unfold step. cbv zeta. destruct (mode s), (ql s) as [q|]; auto. left. exists q. auto.
  Qed.

  Lemma step_OQ_cases s qo :
    step rnd s (OQ qo) = s \/
    step rnd s (OQ qo) = with_lps s (rl s) (Some (qapply (PSense (pmax s)) (empty_lp qzero))) ([], []) \/
    exists q, mode s <> OnlyReal /\ ql s = Some q /\
      let inf := d2q (pinf s) in
      let q' := applys (qap_of qo) (qprims (eps s) (pmax s) (nrows q) (ncols q) q qo) q in
      step rnd s (OQ qo) =
      with_lps s (match mode s with
                  | Auto => applys (rap_of qo) (qrprims rnd (eps s) (nrows q) (ncols q) q' (pmax s) qo) (rl s)
                  | _ => rl s
                  end) (Some q') (ty_apply inf q' (qtyupd inf (nrows q) (ncols q) qo) (rty s, cty s)).
  Proof.
    unfold step. cbv zeta. destruct (mode s), (ql s) as [q|]; auto.
    1: destruct qo; auto.
    all: right; right; exists q; repeat split; auto; discriminate.
  Qed.

  Lemma mode_step_eq s o : mode (step rnd s o) = match o with SetMode md => md | _ => mode s end.
  Proof.
    destruct o as [ro|qo| | | |md|v|mx|v]; unfold step; cbv zeta; auto.
    - destruct (mode s) eqn:Hm, (ql s); auto.
    - destruct (mode s) eqn:Hm, (ql s); auto; destruct qo; auto.
    - destruct (mode s) eqn:Hm; auto. unfold sync_real. destruct (ql s); auto.
    - destruct (mode s) eqn:Hm; auto.
    - destruct (mode s) eqn:Hm; auto.
    - destruct (_ && _); auto. destruct (mode s) eqn:Hm, (ql s); auto.
    - destruct (_ && _); reflexivity.
  Qed.
End Steps.

Section Main.
  Variable rnd : rkind -> Q -> dy.
  Hypothesis rnd_adj : forall k q, adj (rnd k q) q.

  Definition benign (s : state) (o : op) : Prop :=
    match o with
    | OR ro => True
    | OQ qo => match ql s with Some q => benign_q rnd s q qo | None => True end
    | _ => True
    end.

  Lemma step_OR_auto s ro q :
    mode s = Auto -> ql s = Some q -> lp_rel adj (rl s) q -> types_ok s q -> WF2 q ->
    valid_op rnd s (OR ro) = true ->
    InSync (step rnd s (OR ro)).
  Proof.
    intros Hm Hq Hrel Ht Hwf Hv. destruct (valid_OR rnd _ _ Hv) as (V1 & V2 & V3). specialize (V3 q Hm Hq).
    destruct (types_with_lps _ _ _ _ Ht Hwf (R_types _ (eps s) (pmax s) (nrows (rl s)) (ncols (rl s)) ro q) V3) as [W T].
    unfold step. cbv zeta. rewrite Hm, Hq. eexists. split; [reflexivity|]. split; [|split].
    - apply adj_applys; auto. now apply prims_d2q.
    - apply T.
    - exact W.
  Qed.

  Lemma step_OQ_auto s qo q :
    mode s = Auto -> ql s = Some q -> lp_rel adj (rl s) q -> types_ok s q -> WF2 q ->
    valid_op rnd s (OQ qo) = true -> benign_q rnd s q qo ->
    InSync (step rnd s (OQ qo)).
  Proof.
    intros Hm Hq Hrel Ht Hwf Hv Hb.
    assert (mode s <> OnlyReal) as Hm' by congruence. destruct (valid_OQ rnd _ _ _ Hm' Hq Hv) as [V1 _].
    destruct (types_with_lps _ _ _ _ Ht Hwf (Q_types _ (eps s) (pmax s) qo q) V1) as [W T].
    unfold step. cbv zeta. rewrite Hm, Hq. eexists. split; [reflexivity|]. split; [|split].
    - cbn [rl with_lps]. rewrite rap_of_eq. apply adj_applys; auto. now apply qprims_rel.
    - apply T.
    - exact W.
  Qed.
End Main.

(* of the conversions, the invariant needs only that they return doubles *)
Section Invariant.
  Variable rnd : rkind -> Q -> dy.
  Hypothesis rnd_dbl : forall k q, is_double (rnd k q).
  Lemma dy_ok_rnd k q : dy_ok (rnd k q) = true.
  Proof. apply rnd_dbl. Qed.
  Lemma dy_ok_list xs : forallb dy_ok (map (rnd RConv) xs) = true.
  Proof. apply forallb_map_true. intros; apply dy_ok_rnd. Qed.
  Lemma dy_ok_svec v : svec_dy_ok (svec_map (rnd RConv) v) = true.
  Proof. apply forallb_map_true. intros; apply dy_ok_rnd. Qed.
  Lemma dy_ok_dneg d : dy_ok d = true -> dy_ok (dneg d) = true.
  Proof. apply is_double_dneg. Qed.
  Lemma dy_ok_sgn mx d : dy_ok d = true -> dy_ok (sgn dneg mx d) = true.
  Proof. destruct mx; unfold sgn; auto using dy_ok_dneg. Qed.
  Lemma dy_ok_elem e d : dy_ok d = true -> dy_ok (elem_r e d) = true.
  Proof. unfold elem_r. destruct (keep_r e d); auto. Qed.

  Lemma qrprims_dy_ok e m n q' pm qo : forallb prim_dy_ok (qrprims rnd e m n q' pm qo) = true.
  Proof.
    destruct qo as [g [[a b] v]|g rs|g [[[o a] b] v]|g cs|i [[a b] v]|j [[[o a] b] v]|i x|xs|i x|xs|xs|i a b|a b|j x|xs|j x|xs|j a b|a b|j x|xs|g i j x
                    |i|j|perm|perm|idx|idx|a b|a b| ]; cbn [qrprims]; try reflexivity; try destruct g;
      try (simpl; rewrite ?dy_ok_rnd, ?dy_ok_list, ?dy_ok_svec; reflexivity).
    - induction rs as [|[[a b] v] rs IH]; simpl; auto; rewrite ?dy_ok_rnd, ?dy_ok_svec; auto.
    - induction rs as [|[[a b] v] rs IH]; simpl; auto; rewrite ?dy_ok_rnd, ?dy_ok_svec; auto.
    - simpl; rewrite ?dy_ok_rnd, ?dy_ok_svec, ?dy_ok_sgn; auto using dy_ok_rnd.
    - induction cs as [|[[[o a] b] v] cs IH]; simpl; auto; rewrite ?dy_ok_rnd, ?dy_ok_svec, ?dy_ok_sgn; auto using dy_ok_rnd.
    - induction cs as [|[[[o a] b] v] cs IH]; simpl; auto; rewrite ?dy_ok_rnd, ?dy_ok_svec, ?dy_ok_sgn; auto using dy_ok_rnd.
    - simpl. rewrite dy_ok_elem; auto using dy_ok_rnd.
    - simpl. rewrite dy_ok_elem; auto using dy_ok_rnd.
  Qed.

  Lemma RealOK_map_rnd (q : qlp) : RealOK (lp_map (rnd RConv) q).
  Proof.
    assert (forall xs : list Q, Forall2 dbl_rel (map (rnd RConv) xs) (map (rnd RConv) xs)) as F.
    { intros xs. apply forallb_Forall2_dbl. apply dy_ok_list. }
    constructor; simpl; auto.
    - induction (mat q); simpl; constructor; auto.
    - apply rnd_dbl.
  Qed.

  Lemma sync_rat_Inv s : Inv s -> Inv (sync_rat s).
  Proof. intros (A & B & _). apply Inv_mk; auto. now apply WF2_lp_map. Qed.

  (* the same call on both LPs (OBJSENSE, OBJ_OFFSET) *)
  Lemma Inv_both s p p' rt ct pi pm e : Inv s -> prim_dy_ok p = true ->
    prim_ok (nrows (rl s)) (ncols (rl s)) p = true -> (forall q : qlp, prim_ok (nrows q) (ncols q) p' = true) ->
    Inv (mkSt (rapply p (rl s)) (option_map (qapply p') (ql s)) rt ct (mode s) pi pm e).
  Proof.
    intros HI Hp Hok Hok'. pose proof (Inv_ql _ HI) as Q. destruct HI as (A & B & _).
    apply Inv_mk; [now apply rapply_RealOK|now apply WF2_papply|].
    destruct (ql s); simpl; auto. now apply WF2_papply.
  Qed.

  Theorem step_Inv s o : Inv s -> valid_op rnd s o = true -> Inv (step rnd s o).
  Proof.
    intros HI Hv. pose proof HI as (A & B & C & D). pose proof (Inv_ql _ HI) as Q.
    destruct o as [ro|qo| | | |md|v|mx|v].
    - destruct (valid_OR rnd _ _ Hv) as (V1 & V2 & V3).
      destruct (step_OR_cases rnd s ro) as [(q & Hm & Hq & ->)| ->]; unfold with_lps;
        (apply Inv_mk; [apply applys_RealOK|apply WF2_applys|]); auto.
      apply WF2_applys; auto.
    - destruct (step_OQ_cases rnd s qo) as [->|[->|(q & Hm & Hq & ->)]]; auto; unfold with_lps.
      + apply Inv_mk; auto. split; reflexivity.
      + destruct (valid_OQ rnd _ _ _ Hm Hq Hv) as [V1 V2]. rewrite rap_of_eq in *.
        apply Inv_mk; [| |apply WF2_applys; auto]; destruct (mode s); auto using applys_RealOK, qrprims_dy_ok, WF2_applys.
    - unfold step. destruct (mode s) eqn:Hm; auto. unfold sync_real. destruct (ql s) as [q|] eqn:Hq; auto.
      apply Inv_mk; rewrite ?Hq; auto using RealOK_map_rnd, WF2_lp_map.
    - unfold step. destruct (mode s); auto using sync_rat_Inv.
    - unfold step. destruct (mode s); auto using sync_rat_Inv.
    - unfold step. cbv zeta. destruct md.
      + apply Inv_mk; cbn [rl ql]; auto.
      + destruct (mode s) eqn:Hm; apply Inv_mk; unfold sync_rat; cbn [rl ql]; auto using WF2_lp_map;
          destruct (ql s); auto; congruence.
      + apply Inv_mk; cbn [rl ql]; auto. destruct (ql s) as [q|]; [destruct Q|]; split; auto.
    - unfold step. destruct (_ && _); auto. destruct (mode s) eqn:Hm, (ql s) as [q|] eqn:Hq; apply Inv_mk; rewrite ?Hq, ?Hm; auto.
    - apply Inv_both; auto.
    - unfold step. destruct (_ && _); auto. apply Inv_both; auto.
  Qed.
End Invariant.

Section Main2.
  Variable rnd : rkind -> Q -> dy.
  Hypothesis rnd_adj : forall k q, adj (rnd k q) q.
  Lemma InSync_mk r q rt ct md pi pm e : lp_rel adj r q ->
    rt = class_rows (d2q pi) q -> ct = class_cols (d2q pi) q -> WF2 q -> InSync (mkSt r (Some q) rt ct md pi pm e).
  Proof. intros Hrel -> -> W. exists q. split; [reflexivity|]. split; [exact Hrel|]. split; [split; reflexivity|exact W]. Qed.

  Lemma sense_rel mx (r : rlp) (q : qlp) : lp_rel adj r q -> lp_rel adj (rapply (PSense mx) r) (qapply (PSense mx) q).
  Proof.
    intros H. unfold rapply, qapply. eapply papply_rel; eauto using adj_zero, adj_neg, adj_inf. constructor.
  Qed.

  (* the assumption about the conversions, and "benign", matter for the calls of the rational interface only *)
  Theorem auto_step_preserves_gen s o :
    mode s = Auto -> InSync s -> valid_op rnd s o = true ->
    (forall qo, o = OQ qo -> (forall k q, adj (rnd k q) q) /\ benign rnd s o) -> o <> SetMode OnlyReal ->
    InSync (step rnd s o).
  Proof.
    intros Hm HS Hv HQ Hne. pose proof HS as (q & Hq & Hrel & [T1 T2] & W).
    destruct o as [ro|qo| | | |md|v|mx|v].
    - eapply step_OR_auto; eauto. now split.
    - destruct (HQ qo eq_refl) as [Hr Hb]. simpl in Hb. rewrite Hq in Hb. eapply (step_OQ_auto rnd Hr); eauto. now split.
    - unfold step. now rewrite Hm.
    - unfold step. now rewrite Hm.
    - unfold step. now rewrite Hm.
    - destruct md; [congruence| |]; unfold step; cbv zeta; rewrite Hm, Hq; cbn [rl ql rty cty pinf fst snd].
      + now apply InSync_mk.
      + (* the rational LP takes the sense of the real LP, which it has already *)
        apply InSync_mk; [|exact T1|exact T2|now apply (WF2_papply _ _ _ _ (PSense _))].
        destruct Hrel as [H1 H2 H3 H4 H5 H6 H7 H8]. constructor; simpl; auto.
        rewrite H7, eqb_reflx. exact H3.
    - unfold step. destruct (_ && _); [|exact HS]. rewrite Hm, Hq. now apply InSync_mk.
    - unfold step. rewrite Hq. apply InSync_mk; [now apply sense_rel|exact T1|exact T2|now apply (WF2_papply _ _ _ _ (PSense _))].
    - unfold step. destruct (_ && _); [|exact HS]. simpl in Hv. rewrite Hq.
      apply InSync_mk; [|exact T1|exact T2|now apply (WF2_papply _ _ _ _ (POff _))].
      eapply papply_rel; eauto using adj_zero, adj_neg, adj_inf. constructor. now apply adj_exact.
  Qed.

  Theorem auto_step_preserves s o :
    mode s = Auto -> InSync s -> valid_op rnd s o = true -> benign rnd s o -> o <> SetMode OnlyReal ->
    InSync (step rnd s o).
  Proof. intros Hm HS Hv Hb. apply auto_step_preserves_gen; auto. Qed.

  Lemma mode_step s o : mode s = Auto -> stays_auto o -> mode (step rnd s o) = Auto.
  Proof. intros Hm Hs. rewrite mode_step_eq. destruct o as [| | | | |[]| | |]; auto; contradiction. Qed.

  (* histories of calls that are valid and benign when they are made and that stay in SYNCMODE_AUTO *)
  Fixpoint hist_ok (s : state) (ops : list op) : Prop :=
    match ops with
    | [] => True
    | o :: t => valid_op rnd s o = true /\ benign rnd s o /\ stays_auto o /\ hist_ok (step rnd s o) t
    end.

  Theorem auto_history ops : forall s, mode s = Auto -> InSync s -> hist_ok s ops ->
    InSync (run rnd s ops) /\ mode (run rnd s ops) = Auto.
  Proof.
    induction ops as [|o t IH]; intros s Hm HS H; simpl; auto.
    destruct H as (Hv & Hb & Hs & Ht). apply IH; auto.
    - now apply mode_step.
    - apply auto_step_preserves; auto. intros ->. exact Hs.
  Qed.

  Lemma sync_rat_spec s : RealOK (rl s) -> WF2 (rl s) ->
    ql (sync_rat s) = Some (lp_map d2q (rl s)) /\ rl (sync_rat s) = rl s /\ InSync (sync_rat s).
  Proof.
    intros A B. unfold sync_rat. cbn [rl ql]. repeat (split; auto).
    apply InSync_mk; auto using lp_rel_map_d2q, WF2_lp_map.
  Qed.

  Theorem manual_syncLPRational s : mode s = Manual -> RealOK (rl s) -> WF2 (rl s) ->
    ql (step rnd s SyncRat) = Some (lp_map d2q (rl s)) /\ rl (step rnd s SyncRat) = rl s /\ InSync (step rnd s SyncRat).
  Proof. intros Hm A B. unfold step. rewrite Hm. now apply sync_rat_spec. Qed.

  Theorem onlyreal_exact_solve_copy s : mode s = OnlyReal -> RealOK (rl s) -> WF2 (rl s) ->
    ql (step rnd s ExactSolveSync) = Some (lp_map d2q (rl s)) /\ rl (step rnd s ExactSolveSync) = rl s /\
    InSync (step rnd s ExactSolveSync).
  Proof. intros Hm A B. unfold step. rewrite Hm. now apply sync_rat_spec. Qed.

  Theorem onlyreal_to_auto_copy s : mode s = OnlyReal -> RealOK (rl s) -> WF2 (rl s) ->
    ql (step rnd s (SetMode Auto)) = Some (lp_map d2q (rl s)) /\ rl (step rnd s (SetMode Auto)) = rl s /\
    InSync (step rnd s (SetMode Auto)) /\ mode (step rnd s (SetMode Auto)) = Auto.
  Proof.
    intros Hm A B. unfold step. rewrite Hm. unfold sync_rat. cbn [rl ql rty cty pinf pmax eps mode].
    repeat (split; [reflexivity|]). split; [|reflexivity]. apply InSync_mk; auto using lp_rel_map_d2q, WF2_lp_map.
  Qed.

  Theorem manual_syncLPReal s q : mode s = Manual -> ql s = Some q -> types_ok s q -> WF2 q ->
    rl (step rnd s SyncReal) = lp_map (rnd RConv) q /\ ql (step rnd s SyncReal) = Some q /\ InSync (step rnd s SyncReal).
  Proof.
    intros Hm Hq Ht W. unfold step. rewrite Hm. unfold sync_real. rewrite Hq. cbn [rl ql]. repeat (split; auto).
    exists q. cbn [rl ql rty cty pinf]. split; auto. split; [|split]; auto.
    assert (forall xs, Forall2 adj (map (rnd RConv) xs) xs) as F by (intros; apply Forall2_map_l; intros; apply rnd_adj).
    constructor; simpl; auto.
    induction (mat q); simpl; constructor; auto.
  Qed.

  Definition TypesOK (s : state) : Prop := match ql s with Some q => types_ok s q | None => True end.

  Theorem types_step_rational s qo : (forall q, ql s = Some q -> WF2 q) -> TypesOK s -> valid_op rnd s (OQ qo) = true ->
    TypesOK (step rnd s (OQ qo)).
  Proof.
    intros C HT Hv. unfold TypesOK in *.
    destruct (step_OQ_cases rnd s qo) as [->|[->|(q & Hm & Hq & ->)]]; auto.
    - split; reflexivity.
    - rewrite Hq in HT. destruct (valid_OQ rnd _ _ _ Hm Hq Hv) as [V1 _].
      apply (types_with_lps _ _ _ _ HT (C q Hq) (Q_types _ (eps s) (pmax s) qo q) V1).
  Qed.

  Theorem types_step_real_not_auto s ro : mode s <> Auto -> TypesOK s -> TypesOK (step rnd s (OR ro)).
  Proof. intros Hm HT. destruct (step_OR_cases rnd s ro) as [(q & Hm' & _)| ->]; [congruence|exact HT]. Qed.
End Main2.

(* the denotation of a call on a rational LP alone: no mode, no real LP, no rounding, no epsilon, no type arrays;
   a double argument stands for its exact value *)
Definition rprims_ideal (pm : bool) (m n : nat) (o : rop) : list (prim dy) :=
  match o with RElem i j x => [PElem i j x] | _ => rprims dzero pm m n o end.
Definition qprims_ideal (pm : bool) (m n : nat) (q : qlp) (o : qop) : list (prim Q) :=
  match o with QElem _ i j x => [PElem i j x] | _ => qprims dzero pm m n q o end.
(* [pm]: the OBJSENSE parameter (clearLP re-applies it) *)
Definition spec_step (pm : bool) (q : qlp) (o : op) : qlp :=
  match o with
  | OR ro => qapplys (map (prim_map d2q) (rprims_ideal pm (nrows q) (ncols q) ro)) q
  | OQ qo => applys (qap_of qo) (qprims_ideal pm (nrows q) (ncols q) q qo) q
  | SetSense mx => qapply (PSense mx) q
  | SetOffset v => if qleb (- d2q dinf) (d2q v) && qleb (d2q v) (d2q dinf) then qapply (POff (d2q v)) q else q
  | _ => q
  end.
Definition spec_pm (pm : bool) (o : op) : bool := match o with SetSense mx => mx | _ => pm end.
Fixpoint spec_run (pm : bool) (q : qlp) (ops : list op) : qlp :=
  match ops with [] => q | o :: t => spec_run (spec_pm pm o) (spec_step pm q o) t end.

Section Exact.
  Variable rnd : rkind -> Q -> dy.

  (* changeElement stores the value (it is not below epsilon; through the GMP entry point: it is not 0) *)
  Definition elem_kept (s : state) (o : op) : Prop :=
    match o with
    | OR (RElem _ _ x) => keep_r (eps s) x = true
    | OQ (QElem false _ _ x) => keep_q (eps s) x = true
    | OQ (QElem true _ _ x) => qnz x = true
    | _ => True
    end.

  Theorem exact_step s o q :
    mode s = Auto -> ql s = Some q -> nrows (rl s) = nrows q -> ncols (rl s) = ncols q ->
    elem_kept s o -> stays_auto o ->
    ql (step rnd s o) = Some (spec_step (pmax s) q o) /\ pmax (step rnd s o) = spec_pm (pmax s) o.
  Proof.
    intros Hm Hq Em En Hk Hs.
    destruct o as [ro|qo| | | |md|v|mx|v]; unfold step; cbv zeta; rewrite ?Hm, ?Hq;
      try (split; reflexivity).   (* the sync calls do nothing in SYNCMODE_AUTO; OBJSENSE goes to both LPs *)
    - split; [|reflexivity]. unfold with_lps. cbn [ql]. f_equal. unfold spec_step. rewrite Em, En.
      destruct ro; try reflexivity. simpl in Hk. cbn [rprims rprims_ideal]. unfold elem_r. now rewrite Hk.
    - split; [|reflexivity]. unfold with_lps. cbn [ql]. f_equal. unfold spec_step.
      destruct qo; try reflexivity. cbn [qprims qprims_ideal]. unfold elem_q. destruct g; simpl in Hk; now rewrite Hk.
    - destruct md; simpl in Hs; try contradiction. split; [exact Hq|reflexivity].
    - destruct (_ && _); split; first [exact Hq|reflexivity].
    - unfold spec_step. destruct (_ && _); split; first [exact Hq|reflexivity].
  Qed.

  Hypothesis rnd_adj : forall k q, adj (rnd k q) q.

  Fixpoint hist_kept (s : state) (ops : list op) : Prop :=
    match ops with [] => True | o :: t => elem_kept s o /\ hist_kept (step rnd s o) t end.

  Theorem exact_history ops : forall s q, mode s = Auto -> InSync s -> ql s = Some q ->
    hist_ok rnd s ops -> hist_kept s ops ->
    ql (run rnd s ops) = Some (spec_run (pmax s) q ops).
  Proof.
    induction ops as [|o t IH]; intros s q Hm HS Hq H K; simpl; auto.
    destruct H as (Hv & Hb & Hs & Ht). destruct K as [K1 K2].
    pose proof HS as (q0 & Hq0 & Hrel & _). rewrite Hq in Hq0. injection Hq0 as <-.
    destruct (exact_step s o q Hm Hq (nrows_rel _ _ _ Hrel) (ncols_rel _ _ _ Hrel) K1 Hs) as [E1 E2].
    rewrite <- E2. apply IH; auto.
    - now apply mode_step.
    - apply auto_step_preserves; auto. intros ->. exact Hs.
  Qed.
End Exact.

(* every call of the real interface is benign (since changeRow/Col/Range/BoundsReal classify with the INFTY parameter) *)
Lemma benign_real rnd s ro : benign rnd s (OR ro).
Proof. exact I. Qed.

(* no nonzero entry of the vector underflows to 0.0 *)
Lemma vd_ok_no_underflow rnd v :
  (forall p, In p v -> qnz (snd p) = dnz (rnd RConv (snd p))) -> vd_ok rnd v.
Proof.
  unfold vd_ok. induction v as [|p v IH]; intros H; simpl; auto.
  rewrite <- (H p) by (simpl; auto). rewrite IH; auto. intros; apply H; simpl; auto.
Qed.

(* outside SYNCMODE_ONLYREAL (where the arrays are not maintained and every way out recomputes them) *)
Definition TypesInv (s : state) : Prop := mode s <> OnlyReal -> TypesOK s.

Lemma TypesInv_init : TypesInv init.
Proof. intros H. now elim H. Qed.

Lemma TypesOK_sync_rat s : TypesOK (sync_rat s).
Proof. unfold TypesOK, types_ok, sync_rat. cbn [ql rty cty pinf]. split; reflexivity. Qed.

Section TypesAlways.
  Variable rnd : rkind -> Q -> dy.

  Lemma types_step_real_auto s ro : mode s = Auto -> Inv s -> TypesOK s -> valid_op rnd s (OR ro) = true ->
    TypesOK (step rnd s (OR ro)).
  Proof.
    intros Hm (_ & _ & C & _) HT Hv. destruct (valid_OR rnd _ _ Hv) as (_ & _ & V3).
    destruct (step_OR_cases rnd s ro) as [(q & _ & Hq & ->)| ->]; auto.
    unfold TypesOK in *. rewrite Hq in HT.
    apply (types_with_lps _ _ _ _ HT (C q Hq) (R_types _ (eps s) (pmax s) (nrows (rl s)) (ncols (rl s)) ro q) (V3 q Hm Hq)).
  Qed.

  Theorem types_always s o : Inv s -> TypesInv s -> valid_op rnd s o = true -> TypesInv (step rnd s o).
  Proof.
    intros HI HT Hv Hm'. rewrite mode_step_eq in Hm'. pose proof HI as (_ & _ & _ & D).
    destruct o as [ro|qo| | | |md|v|mx|v]; try specialize (HT Hm').
    - destruct (mode s) eqn:Hm; [congruence| |].
      + now apply types_step_real_auto.
      + apply types_step_real_not_auto; [congruence|auto].
    - apply types_step_rational; auto. apply HI.
    - unfold step. destruct (mode s); auto. unfold sync_real, TypesOK in *. destruct (ql s) eqn:Hq; auto.
      cbn [ql]. now rewrite Hq.
    - unfold step. destruct (mode s); auto using TypesOK_sync_rat.
    - unfold step. destruct (mode s); auto using TypesOK_sync_rat.
    - (* the new state has the fields of s or of [sync_rat s], up to the mode, which [TypesOK] does not read *)
      unfold step. cbv zeta. destruct md; [congruence| |]; destruct (mode s) eqn:Hm.
      + exact (TypesOK_sync_rat s).
      + apply HT. congruence.
      + apply HT. congruence.
      + split; reflexivity.
      + assert (TypesOK s) as T by (apply HT; congruence). unfold TypesOK in *.
        destruct (ql s); [exact T|elim D; congruence].
      + assert (TypesOK s) as T by (apply HT; congruence). unfold TypesOK in *.
        destruct (ql s); [exact T|elim D; congruence].
    - unfold step. destruct (_ && _); auto. unfold TypesOK in *.
      destruct (mode s), (ql s); auto; try congruence; split; reflexivity.
    - unfold step, TypesOK in *. cbn [ql]. destruct (ql s); auto.
    - unfold step. destruct (_ && _); auto. unfold TypesOK in *. cbn [ql]. destruct (ql s); auto.
  Qed.

  Lemma onlyreal_to_manual_types s : mode s = OnlyReal -> TypesOK (step rnd s (SetMode Manual)).
  Proof.
    intros Hm. unfold step. cbv zeta. rewrite Hm. unfold TypesOK, types_ok. cbn [ql rty cty pinf fst snd]. split; reflexivity.
  Qed.
End TypesAlways.

(* doubles used in the witnesses: the integer z, 1e20, and -1e30 and 1e-20 as binary64 holds them *)
Definition dI (z : Z) : dy := (z, 0%Z).
Definition d1e20 : dy := (95367431640625%Z, 20%Z).
Definition dm1e30 : dy := ((-3552713678800501)%Z, 48%Z).
Definition d1em20 : dy := (6646139978924579%Z, (-119)%Z).
(* one column 0 <= x0 < infinity with objective 1, one row 0 <= x0 <= 5 *)
Definition base_lp : list op :=
  [OR (RAddCol (dI 1, dI 0, dinf, [])); OR (RAddRow (dI 0, dI 5, [(0, dI 1)]))].

(* INFTY below 1e100: changeRangeReal classifies with the INFTY parameter, as the rational side does; the row is UPPER *)
Definition hist_gap : list op := SetMode Auto :: base_lp ++ [SetInfty d1e20; OR (RRange 0 dm1e30 (dI 1))].
Lemma gap_types_ok rnd :
  valid_run rnd init hist_gap = true /\ mode (run rnd init hist_gap) = Auto /\ TypesOK (run rnd init hist_gap) /\
  rty (run rnd init hist_gap) = [TUpper].
Proof. unfold TypesOK, types_ok. vm_compute. repeat split. Qed.

(* ONLYREAL -> MANUAL recomputes the type arrays for the new rational LP; the row added afterwards is FIXED *)
Definition hist_stale : list op :=
  SetMode Auto :: base_lp ++ [SetMode OnlyReal; SetMode Manual; OQ (QAddRow false (1%Q, 1%Q, [(0, 2%Q)]))].
Lemma stale_types_ok rnd :
  valid_run rnd init hist_stale = true /\ mode (run rnd init hist_stale) = Manual /\ TypesOK (run rnd init hist_stale) /\
  rty (run rnd init hist_stale) = [TFixed].
Proof. unfold TypesOK, types_ok. vm_compute. repeat split. Qed.

(* in a synchronised state the two LPs have the same number of columns *)
Lemma InSync_ncols s : InSync s -> option_map (@ncols Q) (ql s) = Some (ncols (rl s)).
Proof. intros (q & -> & Hrel & _). simpl. f_equal. symmetry. exact (ncols_rel _ _ _ Hrel). Qed.

(* MANUAL -> AUTO does not synchronise *)
Definition hist_manual_auto : list op := [SetMode Manual; OR (RAddCol (dI 1, dI 0, dinf, [])); SetMode Auto].
Lemma manual_auto_refutes rnd :
  valid_run rnd init hist_manual_auto = true /\ mode (run rnd init hist_manual_auto) = Auto /\
  ~ InSync (run rnd init hist_manual_auto).
Proof.
  split; [vm_compute; reflexivity|]. split; [vm_compute; reflexivity|].
  intros H. apply InSync_ncols in H. vm_compute in H. discriminate H.
Qed.

(* changeElementReal / changeElementRational with 0 < |value| <= epsilon: the rational LP does not hold the number *)
Definition hist_elem_eps : list op := SetMode Auto :: base_lp ++ [OQ (QElem false 0 0 (1 # 100000000000000000000)%Q)].
Lemma elem_eps_refutes rnd :
  valid_run rnd init hist_elem_eps = true /\
  exists q, ql (run rnd init hist_elem_eps) = Some q /\ ~ (nth 0 (nth 0 (mat q) []) qzero == 1 # 100000000000000000000)%Q.
Proof.
  split; [vm_compute; reflexivity|].
  eexists. split; [vm_compute; reflexivity|]. vm_compute. discriminate.
Qed.
Definition hist_elem_eps_real : list op := SetMode Auto :: base_lp ++ [OR (RElem 0 0 d1em20)].
Lemma elem_eps_real_refutes rnd :
  valid_run rnd init hist_elem_eps_real = true /\
  exists q, ql (run rnd init hist_elem_eps_real) = Some q /\ ~ (nth 0 (nth 0 (mat q) []) qzero == d2q d1em20)%Q.
Proof.
  split; [vm_compute; reflexivity|].
  eexists. split; [vm_compute; reflexivity|]. vm_compute. discriminate.
Qed.

(* changeElementRational(i, j, const mpq_t pointer) with a nonzero value below the double range: the zero test is made on
   the rational, so the rational LP holds the number *)
Definition hist_elem_gmp_tiny : list op := SetMode Auto :: base_lp ++ [OQ (QElem true 0 0 (Qmake 1 (10 ^ 330)))].
Lemma elem_gmp_tiny_kept rnd :
  valid_run rnd init hist_elem_gmp_tiny = true /\
  exists q, ql (run rnd init hist_elem_gmp_tiny) = Some q /\ nth 0 (nth 0 (mat q) []) qzero = Qmake 1 (10 ^ 330).
Proof.
  (* whatever the denominator: it is never inspected, so it need not be written out *)
  unfold hist_elem_gmp_tiny. generalize (10 ^ 330)%positive. intros d.
  split; [vm_compute; reflexivity|].
  eexists. split; [vm_compute; reflexivity|]. reflexivity.
Qed.

(* the remaining witnesses depend on what the conversions return: they are stated for [rnd_impl] *)

Definition dmin : dy := (1%Z, (-1074)%Z).       (* the smallest positive double *)

(* changeElementRational(i, j, const mpq_t pointer) with 2^-1074 <= |value| <= epsilon: kept in the rational LP,
   deleted from the real LP *)
Definition hist_elem_gmp : list op := SetMode Auto :: base_lp ++ [OQ (QElem true 0 0 (1 # 100000000000000000000)%Q)].
Lemma elem_gmp_refutes :
  valid_run rnd_impl init hist_elem_gmp = true /\ mode (run rnd_impl init hist_elem_gmp) = Auto /\
  ~ InSync (run rnd_impl init hist_elem_gmp).
Proof.
  split; [vm_compute; reflexivity|]. split; [vm_compute; reflexivity|].
  intros (q & Hq & Hrel & _).
  assert (option_map (@mat Q) (ql (run rnd_impl init hist_elem_gmp)) = Some [[(1 # 100000000000000000000)%Q]]) as E
    by (vm_compute; reflexivity).
  rewrite Hq in E. cbn [option_map] in E. injection E as E.
  assert (mat (rl (run rnd_impl init hist_elem_gmp)) = [[dzero]]) as E' by (vm_compute; reflexivity).
  destruct Hrel as [_ _ _ _ _ Hm _ _]. rewrite E, E' in Hm.
  inversion Hm as [|? ? ? ? H1 _]; subst. inversion H1 as [|? ? ? ? H2 _]; subst.
  revert H2. apply (not_adj_between _ _ dmin); [reflexivity|]. split; vm_compute; [reflexivity|discriminate].
Qed.

Lemma lmax_clear_sense {T} (tz : T) tneg tnz tinf pm l :
  lmax (applys (papply tz tneg tnz tinf) [PClear; PSense pm] l) = pm.
Proof. reflexivity. Qed.

Lemma keeps_prim_map {A B} (f : A -> B) p : keeps_sense (prim_map f p) = keeps_sense p.
Proof.
  destruct p as [[[a b] v]|[[[o a] b] v]|i [[a b] v]|j [[[o a] b] v]|i x|i x|j x|j x|j x|xs|xs|xs|xs|xs|i j x|i|j|m|m| |mx|x]; reflexivity.
Qed.

Lemma keeps_map_prim_map {A B} (f : A -> B) ps : forallb keeps_sense (map (prim_map f) ps) = forallb keeps_sense ps.
Proof. induction ps; simpl; auto. now rewrite keeps_prim_map, IHps. Qed.

(* the calls made for one operation leave the sense alone, or clear the LP and set its sense to pm *)
Definition sense_to {T} (pm : bool) (ps : list (prim T)) : Prop :=
  forallb keeps_sense ps = true \/ ps = [PClear; PSense pm].

Lemma lmax_applys_sense {T} (tz : T) tneg tnz tinf pm ps l :
  sense_to pm ps -> lmax l = pm -> lmax (applys (papply tz tneg tnz tinf) ps l) = pm.
Proof. intros [K| ->] H; [now rewrite lmax_applys_keep|reflexivity]. Qed.

Lemma sense_to_map {A B} (f : A -> B) pm ps : sense_to pm ps -> sense_to pm (map (prim_map f) ps).
Proof. intros [K| ->]; [left; now rewrite keeps_map_prim_map|now right]. Qed.

Lemma rprims_sense_to e pm m n ro : sense_to pm (rprims e pm m n ro).
Proof. destruct ro; try (now right); left; try reflexivity; apply forallb_map_true; reflexivity. Qed.

Lemma qprims_sense_to e pm m n q qo : sense_to pm (qprims e pm m n q qo).
Proof. destruct qo; try (now right); left; try reflexivity; apply forallb_map_true; reflexivity. Qed.

Lemma qrprims_sense_to rnd e pm m n q' qo : sense_to pm (qrprims rnd e m n q' pm qo).
Proof.
  destruct qo; try destruct g; try (now right); left; try reflexivity; apply forallb_map_true; reflexivity.
Qed.

(* both LPs have the sense of the OBJSENSE parameter *)
Definition SenseOK (s : state) : Prop := lmax (rl s) = pmax s /\ forall q, ql s = Some q -> lmax q = pmax s.

Lemma SenseOK_init : SenseOK init.
Proof. split; [reflexivity|discriminate]. Qed.

Lemma SenseOK_mk r q rt ct md pi pm e :
  lmax r = pm -> match q with Some q' => lmax q' = pm | None => True end -> SenseOK (mkSt r q rt ct md pi pm e).
Proof. intros A B. split; [exact A|]. now apply ql_forall. Qed.

Theorem step_SenseOK rnd s o : SenseOK s -> SenseOK (step rnd s o).
Proof.
  intros HS. pose proof HS as [A B]. pose proof (proj1 (ql_forall _ _) B) as Q.
  destruct o as [ro|qo| | | |md|v|mx|v].
  - destruct (step_OR_cases rnd s ro) as [(q & _ & Hq & ->)| ->]; unfold with_lps; apply SenseOK_mk; auto;
      apply lmax_applys_sense; auto using rprims_sense_to, sense_to_map.
  - destruct (step_OQ_cases rnd s qo) as [->|[->|(q & _ & Hq & ->)]]; auto; unfold with_lps; apply SenseOK_mk; auto.
    + destruct (mode s); auto. rewrite rap_of_eq. apply lmax_applys_sense; auto using qrprims_sense_to.
    + apply lmax_applys_sense; auto using qprims_sense_to.
  - unfold step. destruct (mode s); auto. unfold sync_real. destruct (ql s) as [q|]; auto.
    apply SenseOK_mk; simpl; auto.
  - unfold step. destruct (mode s); auto. apply SenseOK_mk; simpl; auto.
  - unfold step. destruct (mode s); auto. apply SenseOK_mk; simpl; auto.
  - unfold step. cbv zeta. destruct md; [|destruct (mode s)|]; apply SenseOK_mk; simpl; auto.
  - unfold step. destruct (_ && _); auto. destruct (mode s), (ql s); apply SenseOK_mk; auto.
  - apply SenseOK_mk; [reflexivity|]. destruct (ql s); simpl; auto.
  - unfold step. destruct (_ && _); auto. apply SenseOK_mk; auto. destruct (ql s); simpl; auto.
Qed.

Local Open Scope Z_scope.
(* a double with exponent >= -1074 as an integer multiple of 2^-1074 *)
Definition scale (d : dy) : Z := fst d * 2 ^ (snd d + 1074).
(* truncation towards zero, saturating at the largest double; computed on the integer grid 2^-1074 *)
Definition trunc_pos (n : Z) (dp : positive) : dy :=
  let N := (n * 2 ^ 1074) / Zpos dp in
  let s := Z.max 0 (Z.log2 N - 52) in
  if s <=? 2045 then (N / 2 ^ s, s - 1074) else (2 ^ 53 - 1, 971).
Definition rnd_sat (k : rkind) (q : Q) : dy :=
  if 0 <=? Qnum q then trunc_pos (Qnum q) (Qden q) else dneg (trunc_pos (- Qnum q) (Qden q)).

Lemma d2q_scale d : -1074 <= snd d -> (d2q d * inject_Z (2 ^ 1074) == inject_Z (scale d))%Q.
Proof.
  destruct d as [m e]. unfold d2q, scale. cbn [fst snd]. intros He. destruct (Z.leb_spec 0 e) as [H|H].
  - rewrite <- inject_Z_mult. rewrite Z.pow_add_r by lia. rewrite Z.mul_assoc. reflexivity.
  - unfold Qeq, Qmult, inject_Z. cbn [Qnum Qden]. rewrite Pos.mul_1_r.
    assert (0 < 2 ^ (- e)) as P by (apply Z.pow_pos_nonneg; lia).
    rewrite Z2Pos.id by exact P. rewrite Z.mul_1_r. rewrite <- Z.mul_assoc. f_equal.
    rewrite <- Z.pow_add_r by lia. f_equal. lia.
Qed.

(* The numeral 2^1074 must never reach lia, nia, simpl or change: they would write it out (324 digits) into the proof
   term.  The facts about it are proved over a variable K. *)
Lemma pow1074_pos : (0 < inject_Z (2 ^ 1074))%Q.
Proof. change 0%Q with (inject_Z 0). rewrite <- Zlt_Qlt. apply Z.pow_pos_nonneg; lia. Qed.

Lemma Qle_inject_floor a n dp K : (inject_Z a <= (n # dp) * inject_Z K)%Q <-> a <= n * K / Zpos dp.
Proof.
  unfold Qle, Qmult, inject_Z. cbn [Qnum Qden]. rewrite Pos.mul_1_r, Z.mul_1_r. split; intros H.
  - apply Z.div_le_lower_bound; lia.
  - apply Z.le_trans with (Zpos dp * (n * K / Zpos dp)); [|apply Z.mul_div_le; lia].
    rewrite Z.mul_comm. apply Z.mul_le_mono_nonneg_l; lia.
Qed.

Lemma scale_lt a b : -1074 <= snd a -> -1074 <= snd b -> (d2q a < d2q b)%Q -> scale a < scale b.
Proof.
  intros Ha Hb H. rewrite Zlt_Qlt. rewrite <- (d2q_scale a Ha), <- (d2q_scale b Hb).
  apply Qmult_lt_compat_r; [apply pow1074_pos|exact H].
Qed.

Lemma scale_le_floor d n dp : -1074 <= snd d -> (d2q d <= n # dp)%Q -> scale d <= (n * 2 ^ 1074) / Zpos dp.
Proof.
  intros Hd H. apply Qle_inject_floor. rewrite <- (d2q_scale d Hd).
  apply Qmult_le_compat_r; [exact H|apply Qlt_le_weak, pow1074_pos].
Qed.

Lemma floor_le_q d n dp : -1074 <= snd d -> scale d <= (n * 2 ^ 1074) / Zpos dp -> (d2q d <= n # dp)%Q.
Proof.
  intros Hd H. apply Qle_inject_floor in H. rewrite <- (d2q_scale d Hd) in H.
  apply Qmult_le_r in H; [exact H|apply pow1074_pos].
Qed.

Lemma is_double_spec m e : is_double (m, e) <-> Z.abs m < 2 ^ 53 /\ -1074 <= e <= 971.
Proof.
  unfold is_double, is_doubleb. rewrite !andb_true_iff, Z.ltb_lt, !Z.leb_le. tauto.
Qed.

(* d is adjacent to n/dp from below as soon as, on the grid 2^-1074, it lies at or below the floor N of n/dp and no
   double lies strictly between it and N *)
Lemma adj_floor d n dp N : N = n * 2 ^ 1074 / Zpos dp -> is_double d -> scale d <= N ->
  (forall d', is_double d' -> ~ (scale d < scale d' <= N)) -> adj d (n # dp).
Proof.
  intros -> D Le No.
  assert (forall x, is_double x -> -1074 <= snd x) as Lo by (intros [m e] Hx; apply is_double_spec in Hx; cbn [snd]; lia).
  apply floor_le_q in Le; [|now apply Lo].
  split; auto. intros d' D'. split; intros [X Y]; [|lra].
  apply (No d' D'). split; [apply scale_lt|apply scale_le_floor]; auto.
Qed.

(* the saturated value (2^53 - 1) * 2^E bounds every double whose exponent is at most E *)
Lemma sat_core E m' k : 0 <= k <= E -> m' < 2 ^ 53 -> m' * 2 ^ k <= (2 ^ 53 - 1) * 2 ^ E.
Proof.
  intros Hk Hm. assert (0 < 2 ^ k) by (apply Z.pow_pos_nonneg; lia).
  assert (2 ^ k <= 2 ^ E) by (apply Z.pow_le_mono_r; lia).
  destruct (Z.le_gt_cases m' 0) as [Q|Q].
  - apply Z.le_trans with 0; [apply Z.mul_nonpos_nonneg|apply Z.mul_nonneg_nonneg]; lia.
  - apply Z.mul_le_mono_nonneg; lia.
Qed.

(* no double lies strictly between the truncation of N to 53 significant bits and N (on the grid 2^-1074) *)
Lemma trunc_core N m' k : 0 <= N -> Z.abs m' < 2 ^ 53 -> 0 <= k ->
  let s := Z.max 0 (Z.log2 N - 52) in
  ~ ((N / 2 ^ s) * 2 ^ s < m' * 2 ^ k /\ m' * 2 ^ k <= N).
Proof.
  intros HN Hm Hk s [H1 H2].
  assert (0 <= s) as Hs by (unfold s; lia).
  assert (0 < 2 ^ s) as Ps by (apply Z.pow_pos_nonneg; lia).
  assert (forall x, x * 2 ^ s <= N -> x * 2 ^ s <= N / 2 ^ s * 2 ^ s) as Fl.
  { intros x Hx. apply Z.mul_le_mono_nonneg_r; [lia|]. apply Z.div_le_lower_bound; lia. }
  destruct (Z.le_gt_cases s k) as [C|C].
  - (* m' * 2^k is a multiple of 2^s *)
    replace k with ((k - s) + s) in H1, H2 by lia. rewrite Z.pow_add_r, Z.mul_assoc in H1, H2 by lia.
    apply Fl in H2. lia.
  - (* m' * 2^k <= 2^52 * 2^s, which the truncation reaches because N has log2 N - s + 1 = 53 significant bits *)
    assert (s = Z.log2 N - 52) as Es by (unfold s in *; lia).
    assert (0 < N) as PN. { destruct (Z.eq_dec N 0) as [->|]; [simpl in Es; lia|lia]. }
    pose proof (Z.log2_spec N PN) as [L1 _].
    assert (2 ^ 52 * 2 ^ s <= N) as B. { rewrite <- Z.pow_add_r by lia. replace (52 + s) with (Z.log2 N) by lia. exact L1. }
    apply Fl in B.
    assert (m' * 2 ^ k <= 2 ^ 52 * 2 ^ s) as U; [|lia].
    replace s with (1 + (s - 1)) at 1 by lia. rewrite Z.pow_add_r, Z.mul_assoc by lia. change (2 ^ 52 * 2 ^ 1) with (2 ^ 53).
    assert (0 < 2 ^ (s - 1)) by (apply Z.pow_pos_nonneg; lia).
    pose proof (sat_core (s - 1) m' k). lia.
Qed.

Lemma trunc_small N : 0 <= N -> let s := Z.max 0 (Z.log2 N - 52) in 0 <= N / 2 ^ s < 2 ^ 53.
Proof.
  intros HN s. assert (0 <= s) as Hs by (unfold s; lia).
  assert (0 < 2 ^ s) as Ps by (apply Z.pow_pos_nonneg; lia).
  split. { apply Z.div_pos; lia. }
  destruct (Z.eq_dec N 0) as [->|NZ]. { rewrite Z.div_0_l by lia. reflexivity. }
  pose proof (Z.log2_spec N ltac:(lia)) as [L1 L2].
  apply Z.div_lt_upper_bound; [lia|].
  rewrite <- Z.pow_add_r by lia.
  apply Z.lt_le_trans with (2 ^ Z.succ (Z.log2 N)); auto.
  apply Z.pow_le_mono_r; unfold s; lia.
Qed.

(* the truncation of a point N of the grid; in the saturated case the exponent 2045 = 971 + 1074 stays folded behind E *)
Lemma trunc_grid N : 0 <= N ->
  let s := Z.max 0 (Z.log2 N - 52) in
  let d := if s <=? 2045 then (N / 2 ^ s, s - 1074) else (2 ^ 53 - 1, 971) in
  is_double d /\ scale d <= N /\ forall d', is_double d' -> ~ (scale d < scale d' <= N).
Proof.
  intros HN s. assert (0 <= s) as Hs by (unfold s; lia).
  assert (0 < 2 ^ s) as Ps by (apply Z.pow_pos_nonneg; lia).
  destruct (Z.leb_spec s 2045) as [C|C]; cbv zeta; unfold scale at 1 2; cbn [fst snd].
  - pose proof (trunc_small N HN) as T. cbv zeta in T. fold s in T.
    replace (s - 1074 + 1074) with s by lia. split; [|split].
    + apply is_double_spec. rewrite Z.abs_eq by lia. lia.
    + rewrite Z.mul_comm. apply Z.mul_div_le. lia.
    + intros [m' e'] D'. apply is_double_spec in D'. unfold scale. cbn [fst snd].
      apply (trunc_core N m' (e' + 1074)); lia.
  - remember (971 + 1074) as E eqn:HE. split; [reflexivity|].
    assert (0 < N) as PN. { destruct (Z.eq_dec N 0) as [E0|]; [unfold s in C; rewrite E0 in C; simpl in C; lia|lia]. }
    pose proof (Z.log2_spec N PN) as [L1 _]. split.
    + apply Z.le_trans with (2 ^ Z.log2 N); auto. apply Z.le_trans with (2 ^ 53 * 2 ^ E).
      * apply Z.mul_le_mono_nonneg_r; [apply Z.pow_nonneg|]; lia.
      * rewrite <- Z.pow_add_r by lia. apply Z.pow_le_mono_r; unfold s in C; lia.
    + intros [m' e'] D'. apply is_double_spec in D'. unfold scale. cbn [fst snd].
      pose proof (sat_core E m' (e' + 1074)). lia.
Qed.

Lemma trunc_pos_adj n dp : 0 <= n -> adj (trunc_pos n dp) (n # dp).
Proof.
  intros Hn.
  assert (0 <= n * 2 ^ 1074 / Zpos dp) as HN.
  { apply Z.div_pos; [apply Z.mul_nonneg_nonneg; [|apply Z.pow_nonneg]|]; lia. }
  destruct (trunc_grid _ HN) as (D & Le & No). exact (adj_floor _ n dp _ eq_refl D Le No).
Qed.

Theorem rnd_sat_adj : forall k q, adj (rnd_sat k q) q.
Proof.
  intros k [n dp]. unfold rnd_sat. cbn [Qnum Qden]. destruct (Z.leb_spec 0 n) as [H|H].
  - now apply trunc_pos_adj.
  - apply (adj_Qeq _ (- (- n # dp))%Q).
    + unfold Qeq, Qopp. cbn [Qnum Qden]. lia.
    + apply adj_neg. apply trunc_pos_adj. lia.
Qed.

(* The conversion operator gives 0.0 for a positive n/d below 2^-1077: the quotient is first rounded at the exponent of
   its binade, at most -1129, and the second rounding, to the subnormal exponent -1074, shifts out all its 53 bits and
   more.  (Stated with the exponent k as a variable so that no power of two is ever written out.) *)
Lemma rne_small m s : 0 <= m -> 2 * m < 2 ^ s -> rne (m / 2 ^ s) (m mod 2 ^ s) (2 ^ s) = 0.
Proof.
  intros H0 H. rewrite Z.div_small, Z.mod_small by lia. unfold rne. now rewrite (proj2 (Z.compare_lt_iff _ _) H).
Qed.

Lemma rconv_underflow n d k : 0 < n -> 1077 <= k -> n * 2 ^ k < d -> fst (rnd_abs RConv n d) = 0.
Proof.
  intros Hn Hk Hd.
  assert (0 < 2 ^ k) as Pk by (apply Z.pow_pos_nonneg; lia).
  assert (binade n d <= - k - 52) as He.
  { assert (k + Z.log2 n <= Z.log2 d) by (rewrite <- Z.log2_mul_pow2 by lia; apply Z.log2_le_mono; lia).
    unfold binade. destruct (_ <? _); lia. }
  unfold rnd_abs. revert He. generalize (binade n d). intros e He. cbv zeta.
  unfold scaled_quot, scaled_rem. rewrite (proj2 (Z.leb_gt 0 e)) by lia. cbn [fst snd].
  set (Q := n * 2 ^ (- e) / d).
  assert (0 <= Q < 2 ^ (- e - k)) as HQ.
  { assert (0 < 2 ^ (- e - k)) by (apply Z.pow_pos_nonneg; lia).
    split; [apply Z.div_pos; [apply Z.mul_nonneg_nonneg; [|apply Z.pow_nonneg]|]; lia|].
    apply Z.div_lt_upper_bound; [lia|]. replace (- e) with (k + (- e - k)) at 1 by lia.
    rewrite Z.pow_add_r, Z.mul_assoc by lia. apply Z.mul_lt_mono_pos_r; assumption. }
  set (M := rne Q _ d).
  assert (Q <= M <= Q + 1) as HM by (unfold M, rne; destruct (_ ?= _); [destruct (Z.odd Q)| |]; lia).
  (* whether or not the first rounding carried into the next binade, the mantissa is below half a unit of 2^-1074 *)
  unfold norm53. destruct (M =? 2 ^ 53).
  - rewrite (proj2 (Z.leb_gt (-1074) (e + 1))) by lia. cbn [fst]. apply rne_small; [apply Z.pow_nonneg; lia|].
    change (2 * 2 ^ 52) with (2 ^ 53). apply Z.pow_lt_mono_r; lia.
  - rewrite (proj2 (Z.leb_gt (-1074) e)) by lia. cbn [fst]. apply rne_small; [lia|].
    apply Z.le_lt_trans with (2 ^ (1 + (- e - k))); [rewrite Z.pow_add_r by lia; change (2 ^ 1) with 2; lia|].
    apply Z.pow_lt_mono_r; lia.
Qed.

(* 2^1200 = 8^400 < 10^400 *)
Lemma tiny_rounds_to_zero : dnz (rnd_impl RConv (1 # 10 ^ 400)) = false.
Proof.
  assert (fst (rnd_abs RConv 1 (Zpos (10 ^ 400))) = 0) as H.
  { apply (rconv_underflow 1 _ (3 * 400)); [lia|lia|].
    rewrite Z.mul_1_l, Pos2Z.inj_pow, Z.pow_mul_r by lia. apply Z.pow_lt_mono_l; [lia|]. change (2 ^ 3) with 8. lia. }
  unfold rnd_impl, dnz. cbn [Qnum Qden]. change (1 =? 0) with false. change (0 <? 1) with true. cbv iota.
  rewrite H. reflexivity.
Qed.
Local Close Scope Z_scope.

(* a row whose only entry beyond the current columns rounds to 0.0: columns are created in the rational LP only,
   whatever the conversions do otherwise *)
Definition hist_underflow_at (D : positive) : list op :=
  [SetMode Auto; OR (RAddCol (dI 1, dI 0, dinf, []));
   OQ (QAddRow false (0%Q, 1%Q, [(0, (1 # 3)%Q); (3, Qmake 1 D)]))].
Lemma underflow_at rnd D : dnz (rnd RConv (1 # D)) = false ->
  valid_run rnd init (hist_underflow_at D) = true /\ mode (run rnd init (hist_underflow_at D)) = Auto /\
  ~ InSync (run rnd init (hist_underflow_at D)).
Proof.
  intros Hz. split; [vm_compute; reflexivity|]. split; [vm_compute; reflexivity|].
  intros H. apply InSync_ncols in H. cbv - [dnz] in H. rewrite Hz in H.
  destruct (dnz (rnd RConv (1 # 3))); discriminate H.
Qed.

Definition hist_underflow : list op := hist_underflow_at (10 ^ 400).
Lemma underflow_refutes :
  valid_run rnd_impl init hist_underflow = true /\ mode (run rnd_impl init hist_underflow) = Auto /\
  ~ InSync (run rnd_impl init hist_underflow).
Proof. exact (underflow_at rnd_impl _ tiny_rounds_to_zero). Qed.
