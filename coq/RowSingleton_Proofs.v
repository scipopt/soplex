(* C08 - RowSingletonPS::execute (coq/PostsolveModel.v, exec_RowSingleton): whatever branch the comparisons select, the
   restored point satisfies  slack = A x  and  redcost = c - A^T y  for the LP with the singleton row put back. *)
From Coq Require Import QArith Qabs List Bool Arith Lia Lqa Setoid.
From SV Require Import Vec LP Cert Cert_Proofs PostsolveModel Postsolve_Proofs.
Import ListNotations.
Local Open Scope Q_scope.

Lemma sget_sp_col P j i : (i < nrows P)%nat -> sget (sp_col P j) i == coef P i j.
Proof. exact (sget_sp_of (fun k => coef P k j) (nrows P) i). Qed.

Definition singleton_row (P : lp) (i j : nat) : Prop := forall k, k <> j -> coef P i k == 0.

(* a singleton row has no entries beyond column j, whatever the length of its coefficient list *)
Lemma singleton_activity P i j x : (j < ncols P)%nat -> singleton_row P i j -> coef P i j * vnth x j == activity P i x.
Proof.
  intros Hj Hs. unfold activity.
  rewrite (dot_sumn_ge _ x (Nat.max (length (r_coef (rowi P i))) (ncols P))) by lia.
  rewrite (sumn_change_one _ _ (fun _ => 0) j)
    by (try lia; intros k Hk Hkj; cbv beta; pose proof (Hs k Hkj) as Z; unfold coef in Z; rewrite Z; ring).
  rewrite sumn_zero by (intros; reflexivity). unfold coef. ring.
Qed.

(* the state the decision starts from: index corrected, slack of row i written *)
Lemma rs_start t i oi v : let T0 := set_s (fix_row_idx t i oi) i v in
  sx T0 = sx t /\ sr T0 = sr t /\ scs T0 = scs t /\ ss T0 = unswap (ss t) i oi v /\
  forall yv, qupd (sy T0) i yv = unswap (sy t) i oi yv.
Proof. destruct t. unfold fix_row_idx, unswap. destruct (Nat.eqb i oi); repeat split; reflexivity. Qed.

(* the three outcomes of the decision, field by field *)
Lemma rs_slack_basic_eq t i j ro val keep cst : rs_slack_basic t i j ro val keep cst =
  mkst (sx t) (qupd (sy t) i ro) (ss t) (if keep then sr t else qupd (sr t) j val)
       (match cst with Some s => supd (scs t) j s | None => scs t end) (supd (srs t) i BASIC).
Proof. destruct t, keep, cst; reflexivity. Qed.

Lemma rs_col_basic_eq t i j val a on_lhs : rs_col_basic t i j val a on_lhs =
  mkst (sx t) (qupd (sy t) i (val / a)) (ss t) (qupd (sr t) j 0) (supd (scs t) j BASIC)
       (supd (srs t) i (if on_lhs then ON_LOWER else ON_UPPER)).
Proof. destruct t; reflexivity. Qed.

Lemma rs_both_basic_eq t i j ro : rs_both_basic t i j ro =
  mkst (sx t) (qupd (sy t) i ro) (ss t) (qupd (sr t) j 0) (scs t) (supd (srs t) i BASIC).
Proof. destruct t; reflexivity. Qed.

(* the result of the decision has one of three shapes, whatever the comparisons answer *)
Section Shape.
  Variables (i j : nat) (val a : Q).
  (* t0: the state the decision starts from; t': its result *)
  Definition RS (t0 t' : st) : Prop :=
    sx t' = sx t0 /\ ss t' = ss t0 /\ (forall k, k <> j -> vnth (sr t') k = vnth (sr t0) k) /\
    exists yv, sy t' = qupd (sy t0) i yv /\
      ((yv = 0 /\ (vnth (sr t') j = vnth (sr t0) j \/ vnth (sr t') j = val \/ (gcs t0 j = BASIC /\ vnth (sr t') j = 0))) \/
       (yv = val / a /\ vnth (sr t') j = 0)).

  Lemma RS_slack t0 keep cst : RS t0 (rs_slack_basic t0 i j 0 val keep cst).
  Proof.
    rewrite rs_slack_basic_eq. unfold RS; cbn [sx sy ss sr]. split; [reflexivity|]. split; [reflexivity|]. split.
    - intros k Hk. destruct keep; [reflexivity|]. now rewrite vnth_qupd_other by congruence.
    - exists 0. split; [reflexivity|]. left. split; [reflexivity|].
      destruct keep; [left; reflexivity | right; left; apply vnth_qupd_same].
  Qed.

  Lemma RS_col t0 on_lhs : RS t0 (rs_col_basic t0 i j val a on_lhs).
  Proof.
    rewrite rs_col_basic_eq. unfold RS; cbn [sx sy ss sr]. split; [reflexivity|]. split; [reflexivity|]. split.
    - intros k Hk. now rewrite vnth_qupd_other by congruence.
    - exists (val / a). split; [reflexivity|]. right. split; [reflexivity | apply vnth_qupd_same].
  Qed.

  Lemma RS_both t0 : gcs t0 j = BASIC -> RS t0 (rs_both_basic t0 i j 0).
  Proof.
    intros Hb. rewrite rs_both_basic_eq. unfold RS; cbn [sx sy ss sr]. split; [reflexivity|]. split; [reflexivity|]. split.
    - intros k Hk. now rewrite vnth_qupd_other by congruence.
    - exists 0. split; [reflexivity|]. left. split; [reflexivity|]. right. right. split; [exact Hb | apply vnth_qupd_same].
  Qed.

  Lemma RS_decide c t0 lhs rhs oldLo oldUp : gcs t0 j <> UNDEFINED ->
    RS t0 (rs_decide c t0 i j lhs rhs a val oldLo oldUp 0).
  Proof.
    intros Hu. unfold rs_decide. cbv zeta.
    destruct (gcs t0 j) eqn:Ecs; try congruence;
      repeat match goal with |- context [if ?b then _ else _] => destruct b end;
      first [apply RS_slack | apply RS_col | apply RS_both; exact Ecs].
  Qed.
End Shape.

(* RowSingletonPS: both identities survive, for every comparison record and every recorded side / bound *)
Lemma RowSingleton_identities P i j c lhs rhs oldLo oldUp t :
  (i < nrows P)%nat -> (j < ncols P)%nat -> singleton_row P i j -> ~ coef P i j == 0 ->
  gcs t j <> UNDEFINED -> (gcs t j = BASIC -> gr t j == 0) ->
  prim_ident (red_remove_row P i) t /\ dual_ident (red_remove_row P i) t ->
  let t' := exec_RowSingleton c i (nrows P - 1) j lhs rhs (c_obj (colj P j)) (sp_col P j) oldLo oldUp 0 t in
  prim_ident P t' /\ dual_ident P t'.
Proof.
  intros Hi Hj Hs Ha Hu Hb [H1 H2] t'.
  set (m1 := (nrows P - 1)%nat) in *. set (a := sget (sp_col P j) i) in *.
  assert (Fg : gx (fix_row_idx t i m1) j = gx t j) by (destruct t; unfold fix_row_idx; destruct (Nat.eqb i m1); reflexivity).
  set (T0 := set_s (fix_row_idx t i m1) i (a * gx (fix_row_idx t i m1) j)).
  set (val := c_obj (colj P j) - sdot_skip (sp_col P j) i (sy T0)).
  destruct (rs_start t i m1 (a * gx (fix_row_idx t i m1) j)) as (Fx & Fr & Fc & Fs & Fy). fold T0 in Fx, Fr, Fc, Fs, Fy.
  rewrite Fg in Fs.
  pose proof (sget_sp_col P j i Hi) as Ga. fold a in Ga.
  (* val is the reduced cost of column j in the reduced LP: the row multipliers with entry i zeroed *)
  assert (Vr : val == gr t j).
  { pose proof (restore_row_dual P i Hi 0 t (set_y T0 i 0) H2 (Fy 0) ltac:(intros; unfold gr; cbn [sr set_y]; rewrite Fr; ring) j Hj) as D.
    unfold gr in D |- *; cbn [sr sy set_y] in D. rewrite Fr in D. rewrite D, tvec_sumn.
    unfold val, sp_col. rewrite sdot_skip_sdot, sdot_sp_of.
    apply Qplus_comp; [reflexivity|]. apply Qopp_comp. apply sumn_ext. intros; ring. }
  pose proof (RS_decide i j val a c T0 lhs rhs oldLo oldUp) as D. unfold gcs in D. rewrite Fc in D. specialize (D Hu).
  change (RS i j val a T0 t') in D. destruct D as (Dx & Ds & Dr & yv & Dy & Dcase).
  rewrite Fr in Dr, Dcase. unfold gcs in Dcase. rewrite Fc in Dcase. split.
  - apply (prim_ident_fields P (restore_row i m1 (a * gx t j) yv t)); [now rewrite Dx | now rewrite Ds |].
    apply restore_row_prim; auto. rewrite Ga. now apply singleton_activity.
  - apply (restore_row_dual P i Hi yv t); [exact H2 | now rewrite Dy |].
    intros k Hk. unfold gr. destruct (Nat.eq_dec k j) as [->|Hkj].
    + fold (gr t j). destruct Dcase as [[-> [E|[E|[Eb E]]]]|[-> E]]; rewrite E.
      * unfold gr. ring.
      * rewrite Vr. ring.
      * rewrite (Hb Eb). ring.
      * rewrite Vr, <- Ga. field. now rewrite Ga.
    + rewrite (Dr k Hkj), (Hs k Hkj). ring.
Qed.
