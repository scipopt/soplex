(* Lemmas about the specification model LUModel: linear algebra over Q on list vectors; the two certificates and what
   they say about the solutions; column replacement and the eta update; soundness of the exact checkers and of the
   residual bounds; the basis matrix assembled from an LP; invariance of the checkers under scaling the data of a query;
   the update protocol of SLUFactor (usetup). *)
From Coq Require Import List QArith Qabs Bool Arith ZArith Lia Lqa Setoid Morphisms.
From SV Require Import LUModel.
Import ListNotations.
Local Open Scope Q_scope.

Definition veq : vec -> vec -> Prop := Forall2 Qeq.
Definition meq : mat -> mat -> Prop := Forall2 veq.
Definition cols_len (n : nat) (B : mat) : Prop := Forall (fun c => length c = n) B.

Lemma qmul_eq : forall a b, qmul a b = a * b.
Proof.
  intros [an ad] [bn bd]. unfold qmul, Qmult, zmul_s, pmul_s. simpl.
  destruct (Z.log2 (Z.abs an) <=? Z.log2 (Z.abs bn))%Z; destruct (Pos.size_nat ad <=? Pos.size_nat bd)%nat;
    f_equal; auto using Z.mul_comm, Pos.mul_comm.
Qed.

Lemma veq_refl : forall x, veq x x.
Proof. induction x; constructor; auto. reflexivity. Qed.

Lemma veq_sym : forall x y, veq x y -> veq y x.
Proof. induction 1; constructor; auto. symmetry; auto. Qed.

Lemma veq_trans : forall x y z, veq x y -> veq y z -> veq x z.
Proof.
  intros x y z H; revert z.
  induction H as [|a b x y Hab _ IH]; intros z Hz; inversion Hz as [|b' c y' z' Hbc Hyz]; subst; constructor.
  - etransitivity; eauto.
  - apply IH, Hyz.
Qed.

#[export] Instance veq_Equivalence : Equivalence veq.
Proof. split; [exact veq_refl | exact veq_sym | exact veq_trans]. Qed.

Lemma meq_refl : forall A, meq A A.
Proof. induction A; constructor; auto. apply veq_refl. Qed.

Lemma veq_length : forall x y, veq x y -> length x = length y.
Proof. induction 1; simpl; auto. Qed.

Lemma Forall2_cons_iff (A : Type) (R : A -> A -> Prop) a b x y :
  Forall2 R (a :: x) (b :: y) <-> R a b /\ Forall2 R x y.
Proof. split; [intros H; inversion H; auto | intros [H1 H2]; constructor; assumption]. Qed.

Lemma veqb_iff : forall x y, veqb x y = true <-> veq x y.
Proof.
  induction x as [|a x IH]; intros [|b y]; simpl; try (split; [discriminate | intros H; inversion H]).
  - split; constructor.
  - unfold veq. rewrite andb_true_iff, Qeq_bool_iff, IH, Forall2_cons_iff. reflexivity.
Qed.

Lemma meqb_iff : forall A B, meqb A B = true <-> meq A B.
Proof.
  induction A as [|a A IH]; intros [|b B]; simpl; try (split; [discriminate | intros H; inversion H]).
  - split; constructor.
  - unfold meq. rewrite andb_true_iff, veqb_iff, IH, Forall2_cons_iff. reflexivity.
Qed.

Lemma veq_nth : forall x y, veq x y -> forall i, nth i x 0 == nth i y 0.
Proof. induction 1; intros [|i]; simpl; auto; reflexivity. Qed.

Lemma veq_of_nth : forall x y, length x = length y ->
  (forall i, (i < length x)%nat -> nth i x 0 == nth i y 0) -> veq x y.
Proof.
  induction x as [|a x IH]; destruct y as [|b y]; simpl; intros HL H; try discriminate; constructor.
  - apply (H 0%nat). lia.
  - apply IH. lia. intros i Hi. apply (H (S i)). lia.
Qed.

Lemma wf_vec_iff : forall n v, wf_vec n v = true <-> length v = n.
Proof. intros; unfold wf_vec. apply Nat.eqb_eq. Qed.

Lemma wf_mat_iff : forall n B, wf_mat n B = true <-> length B = n /\ cols_len n B.
Proof.
  intros n B; unfold wf_mat, cols_len. rewrite andb_true_iff, Nat.eqb_eq, forallb_forall, Forall_forall.
  split; intros [H1 H2]; split; auto; intros c Hc; apply wf_vec_iff; auto.
Qed.

Lemma length_vzero : forall n, length (vzero n) = n.
Proof. intros; apply repeat_length. Qed.

Lemma length_vscale : forall a v, length (vscale a v) = length v.
Proof. intros; apply map_length. Qed.

Lemma length_vadd : forall x y, length x = length y -> length (vadd x y) = length x.
Proof. induction x; destruct y; simpl; intros; try discriminate; auto; try (f_equal; apply IHx; lia). Qed.

Lemma length_vsub : forall x y, length x = length y -> length (vsub x y) = length x.
Proof. induction x; destruct y; simpl; intros; try discriminate; auto; try (f_equal; apply IHx; lia). Qed.

(* from H : cols_len n (c :: B):  Hc : length c = n  and  Ht : cols_len n B *)
Ltac inv_cols H Hc Ht :=
  pose proof (Forall_inv H) as Hc; pose proof (Forall_inv_tail H) as Ht; simpl in Hc.

Lemma length_mat_vec : forall n B x, cols_len n B -> length (mat_vec n B x) = n.
Proof.
  induction B as [|c B IH]; intros x HB; simpl. apply length_vzero.
  destruct x as [|a x]. apply length_vzero.
  inv_cols HB Hc HB'. rewrite length_vadd; rewrite length_vscale; auto. rewrite IH; auto.
Qed.

Lemma length_vec_mat : forall x B, length (vec_mat x B) = length B.
Proof. intros; apply map_length. Qed.

Lemma length_unit_vec : forall n k, length (unit_vec n k) = n.
Proof. induction n; intros [|k]; simpl; auto. rewrite length_vzero; auto. Qed.

Lemma cols_len_ident : forall n, cols_len n (ident n).
Proof.
  induction n; simpl; constructor. simpl. rewrite length_vzero; auto.
  unfold cols_len in *. rewrite Forall_forall in *. intros c Hc. apply in_map_iff in Hc.
  destruct Hc as [c' [E Hc']]. subst. simpl. f_equal. auto.
Qed.

Lemma length_ident : forall n, length (ident n) = n.
Proof. induction n; simpl; auto. rewrite map_length. auto. Qed.

#[export] Instance vadd_Proper : Proper (veq ==> veq ==> veq) vadd.
Proof.
  intros x x' H. induction H as [|a a' x x' Ha _ IH]; intros y0 y0' Hy; simpl; [constructor|].
  destruct Hy as [|b b' y y' Hb Hy]; constructor; [rewrite Ha, Hb; reflexivity | apply IH, Hy].
Qed.

#[export] Instance vsub_Proper : Proper (veq ==> veq ==> veq) vsub.
Proof.
  intros x x' H. induction H as [|a a' x x' Ha _ IH]; intros y0 y0' Hy; simpl; [constructor|].
  destruct Hy as [|b b' y y' Hb Hy]; constructor; [rewrite Ha, Hb; reflexivity | apply IH, Hy].
Qed.

#[export] Instance vscale_Proper : Proper (Qeq ==> veq ==> veq) vscale.
Proof. intros a a' Ha v v' H. induction H; simpl; constructor; auto. rewrite !qmul_eq, Ha, H. reflexivity. Qed.

#[export] Instance dot_Proper : Proper (veq ==> veq ==> Qeq) dot.
Proof.
  intros x x' H. induction H as [|a a' x x' Ha _ IH]; intros y0 y0' Hy; simpl; [reflexivity|].
  destruct Hy as [|b b' y y' Hb Hy]; [reflexivity|]. rewrite !qmul_eq, Ha, Hb, (IH _ _ Hy). reflexivity.
Qed.

#[export] Instance meq_Reflexive : Reflexive meq := meq_refl.

#[export] Instance mat_vec_Proper n : Proper (meq ==> veq ==> veq) (mat_vec n).
Proof.
  intros A A' HA. induction HA as [|c c' A A' Hc _ IH]; intros x0 x0' Hx; simpl; [reflexivity|].
  destruct Hx as [|a a' x x' Ha Hx]; [reflexivity|]. rewrite Ha, Hc, (IH _ _ Hx). reflexivity.
Qed.

Lemma map_veq : forall (f g : vec -> Q) l, (forall c, f c == g c) -> veq (map f l) (map g l).
Proof. induction l; intros; simpl; constructor; auto. apply IHl; auto. Qed.

#[export] Instance vec_mat_Proper : Proper (veq ==> meq ==> veq) vec_mat.
Proof. intros x x' Hx B B' HB. induction HB as [|c c' B B' Hc _ IH]; simpl; constructor; [rewrite Hx, Hc; reflexivity | exact IH]. Qed.

Lemma vzero_S : forall n, vzero (S n) = 0 :: vzero n.
Proof. reflexivity. Qed.

Lemma vadd_zero_r : forall x n, length x = n -> veq (vadd x (vzero n)) x.
Proof.
  induction x; intros n H; destruct n; simpl in *; try discriminate; constructor. ring. apply IHx. lia.
Qed.

Lemma vadd_zero_l : forall x n, length x = n -> veq (vadd (vzero n) x) x.
Proof.
  induction x; intros n H; destruct n; simpl in *; try discriminate; constructor. ring. apply IHx. lia.
Qed.

Lemma vadd_interchange : forall p q r s, veq (vadd (vadd p q) (vadd r s)) (vadd (vadd p r) (vadd q s)).
Proof.
  induction p; intros q r s; simpl. constructor.
  destruct q; simpl. destruct r; simpl; constructor.
  destruct r; simpl. constructor. destruct s; simpl. constructor.
  constructor. ring. apply IHp.
Qed.

Lemma vscale_vadd : forall a x y, veq (vscale a (vadd x y)) (vadd (vscale a x) (vscale a y)).
Proof. induction x; destruct y; simpl; constructor. rewrite ?qmul_eq; ring. apply IHx. Qed.

Lemma vscale_plus : forall a b x, veq (vscale (a + b) x) (vadd (vscale a x) (vscale b x)).
Proof. induction x; simpl; constructor. rewrite ?qmul_eq; ring. auto. Qed.

Lemma vscale_vscale : forall a b x, veq (vscale (a * b) x) (vscale a (vscale b x)).
Proof. induction x; simpl; constructor. rewrite ?qmul_eq; ring. auto. Qed.

Lemma vscale_vzero : forall a n, veq (vscale a (vzero n)) (vzero n).
Proof. induction n; simpl; constructor. rewrite ?qmul_eq; ring. auto. Qed.

Lemma vscale_0 : forall x, veq (vscale 0 x) (vzero (length x)).
Proof. induction x; simpl; constructor. rewrite ?qmul_eq; ring. auto. Qed.

Lemma vscale_1 : forall x, veq (vscale 1 x) x.
Proof. induction x; simpl; constructor. rewrite ?qmul_eq; ring. auto. Qed.

Lemma mat_vec_vadd : forall n B x y, cols_len n B -> length x = length y ->
  veq (mat_vec n B (vadd x y)) (vadd (mat_vec n B x) (mat_vec n B y)).
Proof.
  induction B as [|c B IH]; intros x y HB HL; simpl.
  - symmetry. apply vadd_zero_r, length_vzero.
  - destruct x as [|a x]; destruct y as [|b y]; simpl in *; try discriminate.
    + symmetry. apply vadd_zero_r, length_vzero.
    + inv_cols HB Hc HB'. rewrite vscale_plus, IH by auto. apply vadd_interchange.
Qed.

Lemma mat_vec_vscale : forall n B a x, veq (mat_vec n B (vscale a x)) (vscale a (mat_vec n B x)).
Proof.
  induction B as [|c B IH]; intros a x; simpl.
  - symmetry. apply vscale_vzero.
  - destruct x as [|b x]; simpl.
    + symmetry. apply vscale_vzero.
    + rewrite qmul_eq, vscale_vscale, IH, vscale_vadd. reflexivity.
Qed.

Lemma vadd_vscale0_l : forall n c y, length c = n -> length y = n -> veq (vadd (vscale 0 c) y) y.
Proof.
  intros n c y <- Hy. rewrite vscale_0. apply vadd_zero_l, Hy.
Qed.

Lemma mat_vec_vzero : forall n A m, cols_len n A -> veq (mat_vec n A (vzero m)) (vzero n).
Proof.
  induction A as [|c A IH]; intros m HA; simpl. reflexivity.
  destruct m; simpl. reflexivity. inv_cols HA Hc HA'.
  rewrite (vadd_vscale0_l n) by (try apply length_mat_vec; auto). apply IH, HA'.
Qed.

Lemma mat_vec_assoc : forall n A B x, cols_len n A -> cols_len n B ->
  veq (mat_vec n (mat_mul n A B) x) (mat_vec n A (mat_vec n B x)).
Proof.
  intros n A B; induction B as [|c B IH]; intros x HA HB; simpl.
  - symmetry. apply mat_vec_vzero; auto.
  - destruct x as [|a x].
    + symmetry. apply mat_vec_vzero; auto.
    + inv_cols HB Hc HB'. rewrite mat_vec_vadd, mat_vec_vscale, IH by (rewrite ?length_vscale, ?length_mat_vec; auto).
      reflexivity.
Qed.

Lemma mat_vec_cons0 : forall n M x, veq (mat_vec (S n) (map (cons 0) M) x) (0 :: mat_vec n M x).
Proof.
  induction M as [|c M IH]; intros x. simpl. reflexivity.
  destruct x as [|a x]. simpl. reflexivity.
  cbn [map mat_vec]. rewrite IH. simpl. constructor. rewrite ?qmul_eq; ring. reflexivity.
Qed.

Lemma mat_vec_ident : forall n x, length x = n -> veq (mat_vec n (ident n) x) x.
Proof.
  induction n; intros x H; destruct x as [|a x]; simpl in H; try discriminate. constructor.
  cbn [ident mat_vec]. rewrite mat_vec_cons0. simpl. constructor. rewrite ?qmul_eq; ring.
  rewrite vscale_vzero, IHn by lia. apply vadd_zero_l. lia.
Qed.

Lemma dot_vzero_r : forall x n, dot x (vzero n) == 0.
Proof. induction x; intros [|n]; simpl; try reflexivity. rewrite IHx. rewrite ?qmul_eq; ring. Qed.

Lemma dot_vadd_r : forall x y z, length y = length z -> dot x (vadd y z) == dot x y + dot x z.
Proof.
  induction x; intros y z H; destruct y; destruct z; simpl in *; try discriminate; try (ring).
  rewrite IHx. rewrite ?qmul_eq; ring. lia.
Qed.

Lemma dot_vscale_r : forall a x y, dot x (vscale a y) == a * dot x y.
Proof. induction x; destruct y; simpl; try (rewrite ?qmul_eq; ring). rewrite IHx. rewrite ?qmul_eq; ring. Qed.

Lemma dot_vec_mat : forall n B x c, cols_len n B -> dot (vec_mat x B) c == dot x (mat_vec n B c).
Proof.
  induction B as [|b B IH]; intros x c HB; simpl.
  - rewrite dot_vzero_r. reflexivity.
  - destruct c as [|c0 c]. rewrite dot_vzero_r. reflexivity.
    inv_cols HB Hc HB'. rewrite dot_vadd_r. rewrite dot_vscale_r. unfold vec_mat in IH. rewrite (IH x c); auto. rewrite ?qmul_eq; ring.
    rewrite length_vscale, length_mat_vec; auto.
Qed.

Lemma vec_mat_assoc : forall n A B x, cols_len n A ->
  veq (vec_mat (vec_mat x A) B) (vec_mat x (mat_mul n A B)).
Proof.
  intros n A B x HA. unfold mat_mul. induction B; simpl; constructor; auto.
  apply dot_vec_mat; auto.
Qed.

Lemma vec_mat_ident : forall n x, length x = n -> veq (vec_mat x (ident n)) x.
Proof.
  induction n; intros x H; destruct x as [|a x]; simpl in *; try discriminate. constructor.
  constructor. rewrite dot_vzero_r. rewrite ?qmul_eq; ring.
  unfold vec_mat in *. rewrite map_map.
  eapply veq_trans; [| apply (IHn x); lia].
  apply map_veq. intros c. simpl. rewrite ?qmul_eq; ring.
Qed.

Lemma regular_cert_unpack : forall n B Binv, regular_cert n B Binv = true ->
  length B = n /\ cols_len n B /\ length Binv = n /\ cols_len n Binv /\
  meq (mat_mul n Binv B) (ident n) /\ meq (mat_mul n B Binv) (ident n).
Proof.
  intros n B Binv H. unfold regular_cert in H.
  rewrite !andb_true_iff in H. destruct H as (((H1 & H2) & H3) & H4).
  apply wf_mat_iff in H1. apply wf_mat_iff in H2. apply meqb_iff in H3. apply meqb_iff in H4. tauto.
Qed.

(* a product with the identity on one side solves the systems with that factor ... *)
Lemma right_inverse_solves : forall n B Binv b,
  cols_len n B -> cols_len n Binv -> meq (mat_mul n B Binv) (ident n) ->
  length b = n -> veq (mat_vec n B (mat_vec n Binv b)) b.
Proof.
  intros n B Binv b HB HI HM Hb. rewrite <- mat_vec_assoc, HM by auto. apply mat_vec_ident, Hb.
Qed.

Lemma left_inverse_left_solves : forall n B Binv b,
  cols_len n Binv -> meq (mat_mul n Binv B) (ident n) ->
  length b = n -> veq (vec_mat (vec_mat b Binv) B) b.
Proof.
  intros n B Binv b HI HM Hb. rewrite (vec_mat_assoc n), HM by auto. apply vec_mat_ident, Hb.
Qed.

(* ... and, read with the two matrices exchanged, leaves the systems with the other factor at most one solution:
   x = Binv (B x) = Binv b, resp. x = (x^T B) Binv = b^T Binv *)
Lemma left_inverse_solution : forall n B Binv x b,
  cols_len n B -> cols_len n Binv -> meq (mat_mul n Binv B) (ident n) ->
  length x = n -> veq (mat_vec n B x) b -> veq x (mat_vec n Binv b).
Proof.
  intros n B Binv x b HB HI HM Hx Hs. rewrite <- Hs. symmetry. apply right_inverse_solves; auto.
Qed.

Lemma right_inverse_left_solution : forall n B Binv x b,
  cols_len n B -> meq (mat_mul n B Binv) (ident n) ->
  length x = n -> veq (vec_mat x B) b -> veq x (vec_mat b Binv).
Proof.
  intros n B Binv x b HB HM Hx Hs. rewrite <- Hs. symmetry. apply (left_inverse_left_solves n); auto.
Qed.

Lemma check_solve_right_unpack : forall n B x b, check_solve_right n B x b = true <->
  length B = n /\ cols_len n B /\ length x = n /\ veq (mat_vec n B x) b.
Proof.
  intros. unfold check_solve_right. rewrite !andb_true_iff, wf_mat_iff, wf_vec_iff, veqb_iff. tauto.
Qed.

Lemma check_solve_left_unpack : forall n B x b, check_solve_left n B x b = true <->
  length B = n /\ cols_len n B /\ length x = n /\ veq (vec_mat x B) b.
Proof.
  intros. unfold check_solve_left. rewrite !andb_true_iff, wf_mat_iff, wf_vec_iff, veqb_iff. tauto.
Qed.

Lemma regular_cert_unique_solution_lemma : forall n B Binv, regular_cert n B Binv = true ->
  (forall x y b, check_solve_right n B x b = true -> check_solve_right n B y b = true -> Forall2 Qeq x y) /\
  (forall b, length b = n -> check_solve_right n B (mat_vec n Binv b) b = true) /\
  (forall x y b, check_solve_left n B x b = true -> check_solve_left n B y b = true -> Forall2 Qeq x y) /\
  (forall b, length b = n -> check_solve_left n B (vec_mat b Binv) b = true).
Proof.
  intros n B Binv H. apply regular_cert_unpack in H. destruct H as (LB & CB & LI & CI & ML & MR).
  repeat split.
  - intros x y b Hx Hy. apply check_solve_right_unpack in Hx. apply check_solve_right_unpack in Hy.
    destruct Hx as (_ & _ & Lx & Sx). destruct Hy as (_ & _ & Ly & Sy).
    apply veq_trans with (mat_vec n Binv b). apply (left_inverse_solution n B Binv x b); auto.
    apply veq_sym. apply (left_inverse_solution n B Binv y b); auto.
  - intros b Hb. apply check_solve_right_unpack. repeat split; auto.
    apply length_mat_vec; auto. apply right_inverse_solves; auto.
  - intros x y b Hx Hy. apply check_solve_left_unpack in Hx. apply check_solve_left_unpack in Hy.
    destruct Hx as (_ & _ & Lx & Sx). destruct Hy as (_ & _ & Ly & Sy).
    apply veq_trans with (vec_mat b Binv). apply (right_inverse_left_solution n B Binv x b); auto.
    apply veq_sym. apply (right_inverse_left_solution n B Binv y b); auto.
  - intros b Hb. apply check_solve_left_unpack. repeat split; auto.
    rewrite length_vec_mat; auto. apply (left_inverse_left_solves n B Binv b); auto.
Qed.

Lemma singular_cert_unpack : forall n B v, singular_cert n B v = true ->
  length B = n /\ cols_len n B /\ length v = n /\ ~ veq v (vzero n) /\ veq (mat_vec n B v) (vzero n).
Proof.
  intros n B v H. unfold singular_cert in H.
  rewrite !andb_true_iff in H. destruct H as (((H1 & H2) & H3) & H4).
  apply wf_mat_iff in H1. apply wf_vec_iff in H2. apply veqb_iff in H4.
  apply negb_true_iff in H3. repeat split; try tauto.
  intro E. apply veqb_iff in E. congruence.
Qed.

Lemma singular_cert_no_inverse_lemma : forall n B v, singular_cert n B v = true ->
  forall Binv, regular_cert n B Binv = false.
Proof.
  intros n B v HS Binv. destruct (regular_cert n B Binv) eqn:HR; auto. exfalso.
  apply singular_cert_unpack in HS. destruct HS as (LB & CB & Lv & NZ & KV).
  apply regular_cert_unpack in HR. destruct HR as (_ & _ & LI & CI & ML & MR).
  apply NZ.
  apply veq_trans with (mat_vec n Binv (vzero n)). apply (left_inverse_solution n B Binv v (vzero n)); auto.
  apply mat_vec_vzero; auto.
Qed.

Lemma vadd_cancel_zero : forall x v, length x = length v -> veq (vadd x v) x -> veq v (vzero (length v)).
Proof.
  induction x; destruct v; simpl; intros HL H; try discriminate. constructor.
  inversion H; subst. constructor. lra. apply IHx; auto.
Qed.

(* with a kernel vector no solution is unique: x + v is another, different, solution *)
Lemma singular_cert_not_unique_lemma : forall n B v, singular_cert n B v = true ->
  forall x b, check_solve_right n B x b = true ->
    check_solve_right n B (vadd x v) b = true /\ ~ Forall2 Qeq (vadd x v) x.
Proof.
  intros n B v HS x b Hx.
  apply singular_cert_unpack in HS. destruct HS as (LB & CB & Lv & NZ & KV).
  apply check_solve_right_unpack in Hx. destruct Hx as (_ & _ & Lx & Sx).
  split.
  - apply check_solve_right_unpack. repeat split; auto.
    rewrite length_vadd; lia.
    rewrite mat_vec_vadd, Sx, KV by (auto; lia).
    apply vadd_zero_r. apply veq_length in Sx. rewrite <- Sx. apply length_mat_vec; auto.
  - intro E. apply NZ. rewrite <- Lv. apply (vadd_cancel_zero x v); auto. lia.
Qed.

Lemma replace_col_length : forall B k v, length (replace_col B k v) = length B.
Proof. induction B; intros [|k] v; simpl; auto. Qed.

Lemma replace_col_nth_same : forall B k v, (k < length B)%nat -> nth_error (replace_col B k v) k = Some v.
Proof. induction B; intros [|k] v H; simpl in *; try lia; auto. apply IHB. lia. Qed.

Lemma replace_col_nth_other : forall B k v j, j <> k -> nth_error (replace_col B k v) j = nth_error B j.
Proof.
  induction B; intros [|k] v [|j] H; simpl; auto; try congruence; try (apply IHB; congruence).
Qed.

Lemma replace_col_cols_len : forall n B k v, cols_len n B -> length v = n -> cols_len n (replace_col B k v).
Proof.
  induction B; intros [|k] v HB Hv; simpl; auto; inv_cols HB Hc HB'; constructor; auto.
  apply IHB; auto.
Qed.

Lemma replace_col_wf : forall n B k v, wf_mat n B = true -> wf_vec n v = true -> wf_mat n (replace_col B k v) = true.
Proof.
  intros n B k v HB Hv. apply wf_mat_iff in HB. destruct HB. apply wf_vec_iff in Hv. apply wf_mat_iff. split.
  rewrite replace_col_length; auto. apply replace_col_cols_len; auto.
Qed.

Lemma replace_col_spec_lemma : forall n B k v, wf_mat n B = true -> wf_vec n v = true -> (k < n)%nat ->
  wf_mat n (replace_col B k v) = true /\
  nth_error (replace_col B k v) k = Some v /\
  (forall j, j <> k -> nth_error (replace_col B k v) j = nth_error B j).
Proof.
  intros n B k v HB Hv Hk. split. apply replace_col_wf; auto. split.
  apply replace_col_nth_same. apply wf_mat_iff in HB. destruct HB. lia.
  intros. apply replace_col_nth_other; auto.
Qed.

Lemma lu_run_wf_lemma : forall n ops B, wf_mat n B = true -> forallb (wf_op n) ops = true ->
  wf_mat n (lu_run B ops) = true.
Proof.
  induction ops as [|o ops IH]; intros B HB H; simpl in *; auto.
  apply andb_true_iff in H. destruct H as [Ho H]. apply IH; auto.
  destruct o; simpl in *; auto. apply andb_true_iff in Ho. destruct Ho. apply replace_col_wf; auto.
Qed.

Fixpoint set_nth (x : vec) (k : nat) (a : Q) : vec :=
  match x, k with
  | [], _ => []
  | _ :: x', O => a :: x'
  | b :: x', S k' => b :: set_nth x' k' a
  end.

Lemma length_set_nth : forall x k a, length (set_nth x k a) = length x.
Proof. induction x; intros [|k] a0; simpl; auto. Qed.

Lemma vadd_comm : forall p q, veq (vadd p q) (vadd q p).
Proof. induction p; destruct q; simpl; constructor. ring. apply IHp. Qed.

Lemma vadd_assoc : forall p q r, veq (vadd p (vadd q r)) (vadd (vadd p q) r).
Proof. induction p; destruct q; destruct r; simpl; constructor. ring. apply IHp. Qed.

(* meaning of a replaced column for the product:  B' x = B (x with x_k := 0) + x_k v *)
Lemma replace_col_mat_vec : forall n B k v x, cols_len n B -> length v = n -> length x = length B -> (k < length B)%nat ->
  veq (mat_vec n (replace_col B k v) x) (vadd (mat_vec n B (set_nth x k 0)) (vscale (nth k x 0) v)).
Proof.
  induction B as [|c B IH]; intros k v x HB Hv Hx Hk. simpl in Hk. lia.
  destruct x as [|a x]. simpl in Hx. discriminate.
  inv_cols HB Hc HB'. simpl in Hx, Hk.
  destruct k as [|k]; cbn [replace_col mat_vec set_nth nth].
  - rewrite (vadd_vscale0_l n) by (try apply length_mat_vec; auto). apply vadd_comm.
  - rewrite IH by (auto; lia). apply vadd_assoc.
Qed.

(* product-form (eta) update, algebraic core: if w solves B w = v (w is the eta column) then the matrix with
   column k replaced by v acts like B after the eta matrix E = I with column k replaced by w:
      B' x = B (E x),   E x = (x with x_k := 0) + x_k w  *)
Definition eta_apply (k : nat) (w x : vec) : vec := vadd (set_nth x k 0) (vscale (nth k x 0) w).

Lemma eta_update_correct_lemma : forall n B k v w x,
  check_solve_right n B w v = true -> length x = n -> (k < n)%nat ->
  Forall2 Qeq (mat_vec n (replace_col B k v) x) (mat_vec n B (eta_apply k w x)).
Proof.
  intros n B k v w x Hw Hx Hk.
  apply check_solve_right_unpack in Hw. destruct Hw as (LB & CB & Lw & Sw).
  assert (Lv : length v = n). { apply veq_length in Sw. rewrite <- Sw. apply length_mat_vec; auto. }
  unfold eta_apply. rewrite replace_col_mat_vec, mat_vec_vadd, mat_vec_vscale, Sw by (rewrite ?length_set_nth, ?length_vscale; auto; lia).
  reflexivity.
Qed.

Lemma check_solve_right_sound_lemma : forall n B x b,
  check_solve_right n B x b = true <->
  (wf_mat n B = true /\ length x = n /\ length b = n /\
   forall i, (i < n)%nat -> nth i (mat_vec n B x) 0 == nth i b 0).
Proof.
  intros n B x b. rewrite check_solve_right_unpack. rewrite wf_mat_iff. split.
  - intros (LB & CB & Lx & S). repeat split; auto.
    apply veq_length in S. rewrite <- S. apply length_mat_vec; auto.
    intros i _. apply veq_nth; auto.
  - intros ((LB & CB) & Lx & Lb & S). repeat split; auto.
    apply veq_of_nth. rewrite length_mat_vec; auto. rewrite length_mat_vec; auto.
Qed.

Lemma nth_vec_mat : forall x B i, (i < length B)%nat -> nth i (vec_mat x B) 0 = dot x (nth i B []).
Proof.
  intros x B. unfold vec_mat. induction B; intros [|i] H; simpl in *; try lia; auto. apply IHB. lia.
Qed.

Lemma check_solve_left_sound_lemma : forall n B x b,
  check_solve_left n B x b = true <->
  (wf_mat n B = true /\ length x = n /\ length b = n /\
   forall j, (j < n)%nat -> dot x (nth j B []) == nth j b 0).
Proof.
  intros n B x b. rewrite check_solve_left_unpack. rewrite wf_mat_iff. split.
  - intros (LB & CB & Lx & S). repeat split; auto.
    apply veq_length in S. rewrite <- S. rewrite length_vec_mat; auto.
    intros j Hj. rewrite <- nth_vec_mat by lia. apply veq_nth; auto.
  - intros ((LB & CB) & Lx & Lb & S). repeat split; auto.
    apply veq_of_nth. rewrite length_vec_mat; lia. rewrite length_vec_mat. intros j Hj.
    rewrite nth_vec_mat by lia. apply S. lia.
Qed.

Lemma multi_rhs_spec_lemma : forall n B x y z b d e,
  (solve2_right_spec n B x y b d = true <-> check_solve_right n B x b = true /\ check_solve_right n B y d = true) /\
  (solve3_right_spec n B x y z b d e = true <->
     check_solve_right n B x b = true /\ check_solve_right n B y d = true /\ check_solve_right n B z e = true) /\
  (solve2_left_spec n B x y b d = true <-> check_solve_left n B x b = true /\ check_solve_left n B y d = true) /\
  (solve3_left_spec n B x y z b d e = true <->
     check_solve_left n B x b = true /\ check_solve_left n B y d = true /\ check_solve_left n B z e = true).
Proof.
  intros. unfold solve2_right_spec, solve3_right_spec, solve2_left_spec, solve3_left_spec.
  rewrite !andb_true_iff. tauto.
Qed.

Lemma multi_rhs_equals_single_lemma : forall n B Binv x y z b d e x1 y1 z1,
  regular_cert n B Binv = true ->
  solve3_right_spec n B x y z b d e = true ->
  check_solve_right n B x1 b = true -> check_solve_right n B y1 d = true -> check_solve_right n B z1 e = true ->
  Forall2 Qeq x x1 /\ Forall2 Qeq y y1 /\ Forall2 Qeq z z1.
Proof.
  intros n B Binv x y z b d e x1 y1 z1 HR H3 H1 H2 H4.
  destruct (regular_cert_unique_solution_lemma n B Binv HR) as (U & _).
  unfold solve3_right_spec in H3. rewrite !andb_true_iff in H3. destruct H3 as ((A & A2) & A3).
  repeat split; eapply U; eauto.
Qed.

Lemma multi_lhs_equals_single_lemma : forall n B Binv x y z b d e x1 y1 z1,
  regular_cert n B Binv = true ->
  solve3_left_spec n B x y z b d e = true ->
  check_solve_left n B x1 b = true -> check_solve_left n B y1 d = true -> check_solve_left n B z1 e = true ->
  Forall2 Qeq x x1 /\ Forall2 Qeq y y1 /\ Forall2 Qeq z z1.
Proof.
  intros n B Binv x y z b d e x1 y1 z1 HR H3 H1 H2 H4.
  destruct (regular_cert_unique_solution_lemma n B Binv HR) as (_ & _ & U & _).
  unfold solve3_left_spec in H3. rewrite !andb_true_iff in H3. destruct H3 as ((A & A2) & A3).
  repeat split; eapply U; eauto.
Qed.

Lemma dot_unit_vec : forall n k x, length x = n -> dot (unit_vec n k) x == nth k x 0.
Proof.
  induction n; intros k x H; destruct x as [|a x]; simpl in *; try discriminate.
  - destruct k; reflexivity.
  - destruct k; simpl.
    + assert (E : dot (vzero n) x == 0).
      { clear. revert x. induction n; destruct x; simpl; try reflexivity. rewrite IHn. rewrite ?qmul_eq; ring. }
      rewrite E. rewrite ?qmul_eq; ring.
    + rewrite IHn by lia. rewrite ?qmul_eq; ring.
Qed.

Lemma mat_vec_unit_vec : forall n M m k, cols_len n M -> length M = m -> (k < m)%nat ->
  veq (mat_vec n M (unit_vec m k)) (nth k M (vzero n)).
Proof.
  induction M as [|c M IH]; intros m k HM HL Hk. simpl in HL. lia.
  inv_cols HM Hc HM'. simpl in HL. destruct m as [|m]. lia.
  destruct k as [|k]; cbn [unit_vec mat_vec nth].
  - rewrite vscale_1, mat_vec_vzero by auto. apply vadd_zero_r, Hc.
  - eapply veq_trans; [apply (vadd_vscale0_l n); [exact Hc | apply length_mat_vec; auto] | apply (IH m k); auto; lia].
Qed.

Lemma inverse_col_exact_lemma : forall n B Binv c v, regular_cert n B Binv = true ->
  check_inverse_col n B c v = true -> Forall2 Qeq v (nth c Binv (vzero n)).
Proof.
  intros n B Binv c v HR H. unfold check_inverse_col in H. apply andb_true_iff in H. destruct H as [Hc H].
  apply Nat.ltb_lt in Hc.
  pose proof (regular_cert_unpack _ _ _ HR) as (LB & CB & LI & CI & ML & MR).
  apply check_solve_right_unpack in H. destruct H as (_ & _ & Lv & S).
  apply veq_trans with (mat_vec n Binv (unit_vec n c)). apply (left_inverse_solution n B Binv v (unit_vec n c)); auto.
  apply mat_vec_unit_vec; auto.
Qed.

Lemma inverse_row_exact_lemma : forall n B Binv r v, regular_cert n B Binv = true ->
  check_inverse_row n B r v = true ->
  length v = n /\ forall j, (j < n)%nat -> nth j v 0 == nth r (nth j Binv []) 0.
Proof.
  intros n B Binv r v HR H. unfold check_inverse_row in H. apply andb_true_iff in H. destruct H as [Hr H].
  apply Nat.ltb_lt in Hr.
  pose proof (regular_cert_unpack _ _ _ HR) as (LB & CB & LI & CI & ML & MR).
  apply check_solve_left_unpack in H. destruct H as (_ & _ & Lv & S).
  split; auto. intros j Hj.
  assert (E : veq v (vec_mat (unit_vec n r) Binv)). { apply (right_inverse_left_solution n B Binv v (unit_vec n r)); auto. }
  rewrite (veq_nth _ _ E j). rewrite nth_vec_mat by lia.
  apply dot_unit_vec.
  unfold cols_len in CI. rewrite Forall_forall in CI. apply CI. apply nth_In. lia.
Qed.

Lemma qmax_ge_l : forall a b, a <= qmax a b.
Proof. intros. unfold qmax. destruct (Qle_bool a b) eqn:E. apply Qle_bool_iff; auto. lra. Qed.

Lemma qmax_ge_r : forall a b, b <= qmax a b.
Proof.
  intros. unfold qmax. destruct (Qle_bool a b) eqn:E. lra.
  assert (~ a <= b). { intro H. apply Qle_bool_iff in H. congruence. } lra.
Qed.

Lemma norm_inf_nonneg : forall v, 0 <= norm_inf v.
Proof. induction v; simpl. lra. eapply Qle_trans. apply IHv. apply qmax_ge_r. Qed.

Lemma norm_inf_bound : forall v i, (i < length v)%nat -> Qabs (nth i v 0) <= norm_inf v.
Proof.
  induction v; intros [|i] H; simpl in *; try lia.
  - apply qmax_ge_l.
  - eapply Qle_trans. apply IHv. lia. apply qmax_ge_r.
Qed.

Lemma nth_vsub : forall x y i, length x = length y -> (i < length x)%nat ->
  nth i (vsub x y) 0 == nth i x 0 - nth i y 0.
Proof.
  induction x; destruct y; intros [|i] HL H; simpl in *; try lia; try reflexivity. apply IHx; lia.
Qed.

Lemma check_residual_right_unpack : forall n B x b eps, check_residual_right n B x b eps = true <->
  length B = n /\ cols_len n B /\ length x = n /\ length b = n /\
  norm_inf (residual_right n B x b) <= tol_right n B x b eps.
Proof. intros. unfold check_residual_right. rewrite !andb_true_iff, wf_mat_iff, !wf_vec_iff, Qle_bool_iff. tauto. Qed.

Lemma check_residual_left_unpack : forall n B x b eps, check_residual_left n B x b eps = true <->
  length B = n /\ cols_len n B /\ length x = n /\ length b = n /\
  norm_inf (residual_left B x b) <= tol_left B x b eps.
Proof. intros. unfold check_residual_left. rewrite !andb_true_iff, wf_mat_iff, !wf_vec_iff, Qle_bool_iff. tauto. Qed.

Lemma residual_entry_bound : forall u b i t, length u = length b -> (i < length u)%nat ->
  norm_inf (vsub u b) <= t -> Qabs (nth i u 0 - nth i b 0) <= t.
Proof.
  intros u b i t L Hi H. eapply Qle_trans; [|exact H]. rewrite <- nth_vsub by assumption.
  apply norm_inf_bound. rewrite length_vsub; assumption.
Qed.

Lemma residual_bound_right_lemma : forall n B x b eps, check_residual_right n B x b eps = true ->
  forall i, (i < n)%nat -> Qabs (nth i (mat_vec n B x) 0 - nth i b 0) <= tol_right n B x b eps.
Proof.
  intros n B x b eps H i Hi. apply check_residual_right_unpack in H as (LB & CB & Lx & Lb & H).
  apply residual_entry_bound; rewrite ?length_mat_vec; auto.
Qed.

Lemma residual_bound_left_lemma : forall n B x b eps, check_residual_left n B x b eps = true ->
  forall j, (j < n)%nat -> Qabs (dot x (nth j B []) - nth j b 0) <= tol_left B x b eps.
Proof.
  intros n B x b eps H j Hj. apply check_residual_left_unpack in H as (LB & CB & Lx & Lb & H).
  rewrite <- nth_vec_mat by lia. apply residual_entry_bound; rewrite ?length_vec_mat; auto; lia.
Qed.

Lemma qmax_zero : forall a b, a == 0 -> b == 0 -> qmax a b == 0.
Proof. intros a b Ha Hb. unfold qmax. destruct (Qle_bool a b); auto. Qed.

Lemma vsub_self_zero : forall x y, veq x y -> norm_inf (vsub x y) == 0.
Proof.
  induction 1 as [|x y u v Hxy _ IH]; [reflexivity|].
  cbn [vsub norm_inf fold_right]. apply qmax_zero.
  - assert (E : x - y == 0) by lra. rewrite E. reflexivity.
  - exact IH.
Qed.

Lemma norm_inf_mat_nonneg : forall n B, 0 <= norm_inf_mat n B.
Proof. intros. apply norm_inf_nonneg. Qed.

(* an exact solution passes the tolerance check for every eps >= 0, so the tolerance check is not vacuous *)
Lemma exact_passes_residual_lemma : forall n B x b eps, 0 <= eps ->
  check_solve_right n B x b = true -> check_residual_right n B x b eps = true.
Proof.
  intros n B x b eps He H. apply check_solve_right_unpack in H. destruct H as (LB & CB & Lx & S).
  assert (Lb : length b = n) by (rewrite <- (veq_length _ _ S); apply length_mat_vec, CB).
  apply check_residual_right_unpack. repeat split; auto. unfold residual_right. rewrite (vsub_self_zero _ _ S). unfold tol_right.
  pose proof (norm_inf_mat_nonneg n B) as P1. pose proof (norm_inf_nonneg x) as P2. pose proof (norm_inf_nonneg b) as P3.
  assert (P4 : 0 <= norm_inf_mat n B * norm_inf x) by (apply Qmult_le_0_compat; auto).
  apply Qmult_le_0_compat; lra.
Qed.

Lemma vsub_vadd_cancel : forall p q, length p = length q -> veq (vadd q (vsub p q)) p.
Proof. induction p; destruct q; simpl; intros; try discriminate; constructor. ring. apply IHp. lia. Qed.

(* forward error: the error of an approximate solution is the certified inverse applied to its residual *)
Lemma forward_error_lemma : forall n B Binv x b, regular_cert n B Binv = true -> length x = n -> length b = n ->
  Forall2 Qeq x (vadd (mat_vec n Binv b) (mat_vec n Binv (residual_right n B x b))).
Proof.
  intros n B Binv x b HR Lx Lb.
  pose proof (regular_cert_unpack _ _ _ HR) as (LB & CB & LI & CI & ML & MR).
  unfold residual_right.
  assert (Lm : length (mat_vec n B x) = n) by (apply length_mat_vec; auto).
  rewrite <- mat_vec_vadd, vsub_vadd_cancel by (rewrite ?length_vsub; auto; lia).
  apply (left_inverse_solution n B); auto. reflexivity.
Qed.

Lemma basis_matrix_spec_lemma : forall m cols bind M, basis_matrix m cols bind = Some M ->
  length M = length bind /\
  forall i b, nth_error bind i = Some b -> exists c, basis_col m cols b = Some c /\ nth_error M i = Some c.
Proof.
  induction bind as [|b0 bs IH]; intros M H; simpl in H.
  - inversion H; subst. split; auto. intros [|i] b Hb; simpl in Hb; discriminate.
  - destruct (basis_col m cols b0) as [c0|] eqn:E0; try discriminate.
    destruct (basis_matrix m cols bs) as [M'|] eqn:E1; try discriminate.
    inversion H; subst. destruct (IH M' eq_refl) as [L N]. split. simpl; congruence.
    intros [|i] b Hb; simpl in Hb.
    + inversion Hb; subst. exists c0. split; auto.
    + apply N; auto.
Qed.

Lemma basis_col_slack : forall m cols r, (r < m)%nat ->
  basis_col m cols (- 1 - Z.of_nat r)%Z = Some (unit_vec m r).
Proof.
  intros m cols r H. unfold basis_col.
  destruct (0 <=? -1 - Z.of_nat r)%Z eqn:E. apply Z.leb_le in E. lia.
  replace (Z.to_nat (-1 - (-1 - Z.of_nat r))) with r by lia.
  apply Nat.ltb_lt in H. rewrite H. reflexivity.
Qed.

Lemma basis_col_structural : forall m cols j, basis_col m cols (Z.of_nat j) = nth_error cols j.
Proof.
  intros. unfold basis_col. destruct (0 <=? Z.of_nat j)%Z eqn:E.
  rewrite Nat2Z.id. reflexivity. apply Z.leb_gt in E. lia.
Qed.

Lemma basis_col_meaning_lemma :
  forall m cols, (forall j, basis_col m cols (Z.of_nat j) = nth_error cols j) /\
                 (forall r, (r < m)%nat -> basis_col m cols (- 1 - Z.of_nat r)%Z = Some (unit_vec m r)).
Proof. intros m cols. split. exact (basis_col_structural m cols). exact (basis_col_slack m cols). Qed.

(* The scaled form of the regular certificate (Binv = N / d) *)

Lemma mat_vec_mscale : forall n a A x, veq (mat_vec n (mscale a A) x) (vscale a (mat_vec n A x)).
Proof.
  induction A as [|c A IH]; intros x; simpl.
  - symmetry. apply vscale_vzero.
  - destruct x as [|b x].
    + symmetry. apply vscale_vzero.
    + rewrite vscale_vadd, IH, <- !vscale_vscale, (Qmult_comm b a). reflexivity.
Qed.

Lemma vscale_inv_cancel : forall d v, ~ d == 0 -> veq (vscale (/ d) (vscale d v)) v.
Proof. intros d v Hd. induction v; simpl; constructor; auto. rewrite ?qmul_eq. field. auto. Qed.

Lemma cols_len_mscale_iff : forall n a A, cols_len n (mscale a A) <-> cols_len n A.
Proof.
  intros n a A. unfold cols_len, mscale. rewrite Forall_map.
  split; apply Forall_impl; intros c; rewrite length_vscale; auto.
Qed.

Lemma mat_mul_mscale_l : forall n a A B, meq (mat_mul n (mscale a A) B) (mscale a (mat_mul n A B)).
Proof. intros n a A B. unfold mat_mul, mscale at 2. induction B; simpl; constructor; auto. apply mat_vec_mscale. Qed.

Lemma mat_mul_mscale_r : forall n a A B, meq (mat_mul n A (mscale a B)) (mscale a (mat_mul n A B)).
Proof. intros n a A B. unfold mat_mul, mscale. induction B; simpl; constructor; auto. apply mat_vec_vscale. Qed.

Lemma meq_scaled : forall d M I, ~ d == 0 -> meq M (mscale d I) -> meq (mscale (/ d) M) I.
Proof.
  intros d M. induction M as [|c M IH]; intros I Hd H; destruct I as [|e I]; simpl in *;
    inversion H as [|? ? ? ? Hce HMI]; subst; constructor.
  - rewrite Hce. apply vscale_inv_cancel, Hd.
  - apply IH; auto.
Qed.

Lemma meq_trans : forall X Y Z, meq X Y -> meq Y Z -> meq X Z.
Proof.
  intros X Y Z E. revert Z.
  induction E as [|x y X Y Hxy _ IH]; intros Z H0; inversion H0 as [|y' z Y' Z' Hyz HYZ]; subst; constructor.
  - eapply veq_trans; eauto.
  - apply IH, HYZ.
Qed.

Lemma regular_cert_scaled_sound_lemma : forall n B N d,
  regular_cert_scaled n B N d = true -> regular_cert n B (mscale (/ d) N) = true.
Proof.
  intros n B N d H. unfold regular_cert_scaled in H.
  rewrite !andb_true_iff in H. destruct H as ((((H0 & H1) & H2) & H3) & H4).
  apply negb_true_iff in H0.
  assert (Hd : ~ d == 0). { intro E. apply Qeq_bool_iff in E. congruence. }
  pose proof H1 as W1. pose proof H2 as W2.
  apply wf_mat_iff in H1. apply wf_mat_iff in H2. destruct H1 as [LB CB]. destruct H2 as [LN CN].
  apply meqb_iff in H3. apply meqb_iff in H4.
  unfold regular_cert. rewrite !andb_true_iff. repeat split; auto.
  - apply wf_mat_iff. split. unfold mscale. rewrite map_length. auto. apply cols_len_mscale_iff; auto.
  - apply meqb_iff. eapply meq_trans; [apply mat_mul_mscale_l | apply meq_scaled; auto].
  - apply meqb_iff. eapply meq_trans; [apply mat_mul_mscale_r | apply meq_scaled; auto].
Qed.

(* Homogeneity: the checks scale the data of a query to integers *)

Lemma vscale_cancel : forall c u v, ~ c == 0 -> veq (vscale c u) (vscale c v) -> veq u v.
Proof.
  intros c u. induction u as [|a u IH]; intros v Hc H; destruct v as [|b v]; simpl in H;
    inversion H as [|? ? ? ? Hab Huv]; subst; constructor.
  - rewrite !qmul_eq in Hab. apply (Qmult_inj_l a b c Hc). exact Hab.
  - apply IH; auto.
Qed.

Lemma length_mscale : forall a A, length (mscale a A) = length A.
Proof. intros. unfold mscale. apply map_length. Qed.

Lemma mat_vec_scaled : forall n B x s t,
  veq (mat_vec n (mscale s B) (vscale t x)) (vscale (s * t) (mat_vec n B x)).
Proof.
  intros. rewrite mat_vec_mscale, mat_vec_vscale, vscale_vscale. reflexivity.
Qed.

(* a system whose two sides are scaled by the same non-zero factor *)
Lemma scaled_system_iff : forall c (y y' b : vec), ~ c == 0 -> veq y' (vscale c y) ->
  (veq y' (vscale c b) <-> veq y b).
Proof.
  intros c y y' b Hc Hy. split; intros S.
  - apply (vscale_cancel c); auto. rewrite <- Hy. exact S.
  - rewrite Hy, S. reflexivity.
Qed.

Lemma dot_vscale_l : forall a x y, dot (vscale a x) y == a * dot x y.
Proof. induction x; destruct y; simpl; try (rewrite ?qmul_eq; ring). rewrite IHx. rewrite ?qmul_eq; ring. Qed.

Lemma vec_mat_scaled : forall B x s t,
  veq (vec_mat (vscale t x) (mscale s B)) (vscale (s * t) (vec_mat x B)).
Proof.
  intros. unfold vec_mat, mscale. induction B as [|c B IH]; simpl; constructor; auto.
  rewrite dot_vscale_l, dot_vscale_r. rewrite ?qmul_eq; ring.
Qed.

Lemma exact_check_scale_invariant_lemma :
  forall n B x b s t, ~ s == 0 -> ~ t == 0 ->
  check_solve_right n (mscale s B) (vscale t x) (vscale (s * t) b) = check_solve_right n B x b /\
  check_solve_left n (mscale s B) (vscale t x) (vscale (s * t) b) = check_solve_left n B x b.
Proof.
  intros n B x b s t Hs Ht.
  assert (Hst : ~ s * t == 0). { intro E. apply Qmult_integral in E. tauto. }
  split; apply eq_true_iff_eq.
  - rewrite !check_solve_right_unpack, length_mscale, length_vscale, cols_len_mscale_iff.
    rewrite (scaled_system_iff _ _ _ b Hst (mat_vec_scaled n B x s t)). reflexivity.
  - rewrite !check_solve_left_unpack, length_mscale, length_vscale, cols_len_mscale_iff.
    rewrite (scaled_system_iff _ _ _ b Hst (vec_mat_scaled B x s t)). reflexivity.
Qed.

Lemma qmax_comp : forall a a' b b', a == a' -> b == b' -> qmax a b == qmax a' b'.
Proof.
  intros a a' b b' Ha Hb. unfold qmax.
  destruct (Qle_bool a b) eqn:E1; destruct (Qle_bool a' b') eqn:E2; auto.
  - apply Qle_bool_iff in E1. assert (~ a' <= b') by (intro K; apply Qle_bool_iff in K; congruence). lra.
  - apply Qle_bool_iff in E2. assert (~ a <= b) by (intro K; apply Qle_bool_iff in K; congruence). lra.
Qed.

#[export] Instance norm_inf_Proper : Proper (veq ==> Qeq) norm_inf.
Proof. intros u v H. induction H as [|a b u v Hab _ IH]; simpl. reflexivity. apply qmax_comp; auto. rewrite Hab. reflexivity. Qed.

Lemma qmax_scale : forall c a b, 0 <= c -> qmax (c * a) (c * b) == c * qmax a b.
Proof.
  intros c a b Hc. unfold qmax.
  destruct (Qle_bool (c * a) (c * b)) eqn:E1; destruct (Qle_bool a b) eqn:E2; try reflexivity.
  - apply Qle_bool_iff in E1. assert (~ a <= b) by (intro K; apply Qle_bool_iff in K; congruence). nra.
  - apply Qle_bool_iff in E2. assert (~ c * a <= c * b) by (intro K; apply Qle_bool_iff in K; congruence). nra.
Qed.

Lemma norm_inf_vscale : forall c v, norm_inf (vscale c v) == Qabs c * norm_inf v.
Proof.
  induction v. simpl. ring.
  unfold vscale in *. cbn [map norm_inf fold_right] in *.
  rewrite qmul_eq. eapply Qeq_trans. apply qmax_comp. apply Qabs_Qmult. exact IHv.
  apply qmax_scale. apply Qabs_nonneg.
Qed.

Lemma vsub_vscale : forall c u v, veq (vsub (vscale c u) (vscale c v)) (vscale c (vsub u v)).
Proof. induction u; destruct v; simpl; constructor. rewrite !qmul_eq. ring. apply IHu. Qed.

Lemma abs_mat_mscale : forall s B, meq (abs_mat (mscale s B)) (mscale (Qabs s) (abs_mat B)).
Proof.
  intros. unfold abs_mat, mscale. induction B as [|c B IH]; simpl; constructor; auto.
  clear. unfold vscale. induction c as [|a c IHc]. constructor.
  cbn [map]. constructor; auto. rewrite !qmul_eq. apply Qabs_Qmult.
Qed.

Lemma Qabs_Qabs : forall a, Qabs (Qabs a) == Qabs a.
Proof. intros. apply Qabs_pos. apply Qabs_nonneg. Qed.

Lemma norm_inf_mat_mscale : forall n s B, norm_inf_mat n (mscale s B) == Qabs s * norm_inf_mat n B.
Proof.
  intros. unfold norm_inf_mat. rewrite length_mscale.
  rewrite abs_mat_mscale, mat_vec_mscale, norm_inf_vscale, Qabs_Qabs. reflexivity.
Qed.

Lemma vsum_abs_vscale : forall s c, vsum_abs (vscale s c) == Qabs s * vsum_abs c.
Proof.
  intros s c. unfold vscale. induction c as [|a c IHc]. simpl. ring.
  change (Qabs (qmul s a) + vsum_abs (map (fun c0 => qmul s c0) c) == Qabs s * (Qabs a + vsum_abs c)).
  rewrite qmul_eq, Qabs_Qmult, IHc. ring.
Qed.

Lemma norm_one_mat_mscale : forall s B, norm_one_mat (mscale s B) == Qabs s * norm_one_mat B.
Proof.
  intros. unfold norm_one_mat.
  assert (E : veq (map vsum_abs (mscale s B)) (vscale (Qabs s) (map vsum_abs B))).
  { unfold mscale. induction B; simpl; constructor; auto. rewrite qmul_eq. apply vsum_abs_vscale. }
  rewrite E, norm_inf_vscale, Qabs_Qabs. reflexivity.
Qed.

Lemma wf_mat_mscale : forall n s B, wf_mat n (mscale s B) = wf_mat n B.
Proof.
  intros. apply eq_true_iff_eq. rewrite !wf_mat_iff, length_mscale, cols_len_mscale_iff. reflexivity.
Qed.

Lemma wf_vec_vscale : forall n t x, wf_vec n (vscale t x) = wf_vec n x.
Proof. intros. unfold wf_vec. rewrite length_vscale. reflexivity. Qed.

Lemma Qle_bool_scale : forall c a b a' b', 0 < c -> a' == c * a -> b' == c * b -> Qle_bool a' b' = Qle_bool a b.
Proof.
  intros c a b a' b' Hc Ha Hb. apply eq_true_iff_eq. rewrite !Qle_bool_iff. rewrite Ha, Hb.
  apply Qmult_le_l. auto.
Qed.

Lemma Qpos_nz : forall a, 0 < a -> ~ a == 0.
Proof. intros a H E. rewrite E in H. discriminate H. Qed.

Lemma Qabs_pos_nz : forall a, ~ a == 0 -> 0 < Qabs a.
Proof.
  intros a H. pose proof (Qabs_nonneg a) as N. destruct (Qlt_le_dec 0 (Qabs a)) as [L|L]; auto. exfalso. apply H.
  assert (E : Qabs a == 0) by lra. revert E. apply Qabs_case; intros; lra.
Qed.

(* the tolerance test on a residual and a matrix norm that are both scaled *)
Lemma residual_scale : forall (res res' x b : vec) (nB nB' eps s t : Q), ~ s == 0 -> ~ t == 0 ->
  veq res' (vscale (s * t) res) -> nB' == Qabs s * nB ->
  Qle_bool (norm_inf res') (eps * (nB' * norm_inf (vscale t x) + norm_inf (vscale (s * t) b)))
  = Qle_bool (norm_inf res) (eps * (nB * norm_inf x + norm_inf b)).
Proof.
  intros res res' x b nB nB' eps s t Hs Ht Hres HB.
  assert (Hst : ~ s * t == 0) by (intro E; apply Qmult_integral in E; tauto).
  apply (Qle_bool_scale (Qabs (s * t))); [apply Qabs_pos_nz, Hst | |].
  - rewrite Hres, norm_inf_vscale. reflexivity.
  - rewrite HB, !norm_inf_vscale, Qabs_Qmult. ring.
Qed.

Lemma residual_check_scale_invariant_lemma :
  forall n B x b eps s t, ~ s == 0 -> ~ t == 0 ->
  check_residual_right n (mscale s B) (vscale t x) (vscale (s * t) b) eps = check_residual_right n B x b eps /\
  check_residual_left n (mscale s B) (vscale t x) (vscale (s * t) b) eps = check_residual_left n B x b eps.
Proof.
  intros n B x b eps s t Hs Ht.
  unfold check_residual_right, check_residual_left, tol_right, tol_left, residual_right, residual_left.
  rewrite wf_mat_mscale, !wf_vec_vscale. split; f_equal; apply residual_scale; auto.
  - rewrite mat_vec_scaled. apply vsub_vscale.
  - apply norm_inf_mat_mscale.
  - rewrite vec_mat_scaled. apply vsub_vscale.
  - apply norm_one_mat_mscale.
Qed.

Lemma check_close_scale_lemma : forall x y eps t, ~ t == 0 ->
  check_close (vscale t x) (vscale t y) eps = check_close x y eps.
Proof.
  intros x y eps t Ht. unfold check_close. rewrite !length_vscale. f_equal.
  apply (Qle_bool_scale (Qabs t)); [apply Qabs_pos_nz, Ht | |].
  - rewrite vsub_vscale, norm_inf_vscale. reflexivity.
  - rewrite !norm_inf_vscale. ring.
Qed.

(* the invariant of the protocol: a prepared vector was prepared for the matrix held at present *)
Definition prep_current (s : pstate) : Prop := match p_prep s with Some (B, _) => B = p_mat s | None => True end.

Lemma p_step_prep_current s o : prep_current s -> prep_current (p_step s o).
Proof. destruct o; unfold prep_current; cbn; auto. Qed.

Lemma p_run_prep_current : forall ops s, prep_current s -> prep_current (p_run s ops).
Proof. induction ops as [|o ops IH]; intros s H; cbn; auto. apply IH. apply p_step_prep_current. exact H. Qed.

(* from any state that satisfies the invariant, e.g. after a run that started from one *)
Lemma change_uses_prep_current : forall s o B v, prep_current s -> change_uses s o = Some (B, v) -> B = p_mat s.
Proof.
  intros s o B v P H. unfold prep_current in P. destruct o as [| | |k w e]; cbn in H; try discriminate.
  destruct e; try discriminate. rewrite H in P. exact P.
Qed.

(* whatever the history, a change that relies on the prepared vector gets the vector prepared for the CURRENT matrix *)
Lemma change_uses_current_lemma : forall ops B0 o B v,
  change_uses (p_run {| p_mat := B0; p_prep := None |} ops) o = Some (B, v) ->
  B = p_mat (p_run {| p_mat := B0; p_prep := None |} ops).
Proof. intros ops B0 o B v. apply change_uses_prep_current, p_run_prep_current. exact I. Qed.

(* the protocol state follows the matrix of the specification state machine *)
Definition p_erase (o : p_op) : list lu_op :=
  match o with PLoad B => [OpLoad B] | PChange k v _ => [OpChange k v] | _ => [] end.

Lemma p_run_matrix_lemma : forall ops s, p_mat (p_run s ops) = lu_run (p_mat s) (flat_map p_erase ops).
Proof.
  induction ops as [|o ops IH]; intros s; [reflexivity|].
  change (p_run s (o :: ops)) with (p_run (p_step s o) ops). rewrite IH. unfold lu_run.
  cbn [flat_map]. rewrite fold_left_app. destruct o; cbn; reflexivity.
Qed.

Lemma usetup_after_lemma s o : usetup (p_step s o) = match o with PPrep _ => true | PSolve => usetup s | _ => false end.
Proof. destruct o; reflexivity. Qed.

(* if load() kept the prepared vector, a later change would use a vector prepared for another matrix *)
Lemma stale_load_refuted_lemma :
  exists ops o B v, let s := fold_left p_step_stale ops {| p_mat := [[1; 0]; [0; 1]]; p_prep := None |} in
    change_uses s o = Some (B, v) /\ B <> p_mat s.
Proof.
  exists [PPrep [1; 1]; PLoad [[2; 0]; [0; 1]]], (PChange 0 [3; 1] false), [[1; 0]; [0; 1]], [1; 1].
  cbn. split; [reflexivity | discriminate].
Qed.
