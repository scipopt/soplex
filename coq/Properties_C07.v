(* C07 - The floating-point LP and the rational LP never drift apart.
 Each theorem is closed by a lemma of Sync_Proofs.v or a short derivation from them; Examples show that hypotheses
 are satisfiable.

 Vocabulary (SyncModel.v / Sync_Proofs.v):
   state, op, step, run     the solver object as far as C07 observes it (real LP with exact dyadic entries, optional
                            rational LP over Q, _rowTypes/_colTypes, SYNCMODE, INFTY, OBJSENSE, EPSILON_ZERO) and the
                            calls: OR (real interface), OQ (rational interface, with the GMP entry points where they
                            differ), SyncReal, SyncRat, ExactSolveSync (the copy optimize() makes before an exact solve
                            in SYNCMODE_ONLYREAL), SetMode, SetInfty, SetSense, SetOffset
   rnd : rkind -> Q -> dy   the oracle for Rational -> double (RConv: conversion operator, RGetD: mpq_get_d)
   adj d q                  d is a double and no double lies beyond d in the direction of q up to q itself:
                            d is q, or the largest double below q, or the smallest double above q
   valid_op / valid_run     the call is inside the documented domain in the state in which it is made
   InSync s                 the rational LP exists; the real LP has the same dimensions and sense and each of its
                            entries (sides, bounds, objective, matrix, offset) is adjacent to the rational entry; the
                            type arrays are the classification of the rational bounds with threshold INFTY
   Inv s                    every entry of the real LP is a double, sides/bounds vectors have matching lengths, and a
                            rational LP exists outside SYNCMODE_ONLYREAL
   benign s o               the call avoids the mechanisms by which the code itself breaks the relation (see the
                            refutation theorems): a nonzero vector entry beyond the current dimension whose double
                            image is 0, changeElement with a value at the epsilon threshold (every call of the real
                            interface is benign), the GMP addCol entry points when the sense of the LPs
                            differs from the OBJSENSE parameter
   spec_step / spec_run     what a call means for a rational LP alone: every argument stored verbatim, a double
                            argument as its exact value (no mode, no real LP, no rounding, no epsilon, no types) *)
From Coq Require Import ZArith QArith List Bool.
From SV Require Import SyncModel Sync_Proofs.
Import ListNotations.
Local Open Scope nat_scope.

(* the only assumption about the conversions, made by every theorem that mentions [oracle_ok]: they return a double
 adjacent to the rational *)
Definition oracle_ok (rnd : rkind -> Q -> dy) : Prop := forall k q, adj (rnd k q) q.

(* Every reachable state is well formed (all modes, every call of the domain) *)
Theorem C07_invariant_step : forall rnd, oracle_ok rnd -> forall s o, Inv s -> valid_op rnd s o = true -> Inv (step rnd s o).
Proof. intros rnd H. exact (step_Inv rnd (fun k q => proj1 (H k q))). Qed.
Print Assumptions C07_invariant_step.

(* Every benign call made in SYNCMODE_AUTO, through either interface, keeps the two LPs in
   sync (partial: "benign"; the excluded calls do break the relation, see the refutations) *)
Theorem C07_auto_preserves_InSync_partial :
  forall rnd, oracle_ok rnd -> forall s o, mode s = Auto -> InSync s -> valid_op rnd s o = true -> benign rnd s o -> o <> SetMode OnlyReal ->
    InSync (step rnd s o).
Proof. exact auto_step_preserves. Qed.
Print Assumptions C07_auto_preserves_InSync_partial.

(* ... hence after any history of such calls *)
Theorem C07_auto_history_InSync_partial :
  forall rnd, oracle_ok rnd -> forall ops s, mode s = Auto -> InSync s -> hist_ok rnd s ops ->
    InSync (run rnd s ops) /\ mode (run rnd s ops) = Auto.
Proof. exact auto_history. Qed.
Print Assumptions C07_auto_history_InSync_partial.

(* ... and the rational LP is exactly the denotation of the history: what was entered, verbatim (partial:
   changeElement calls must store their value, i.e. not fall under the epsilon / underflow rule) *)
Theorem C07_auto_rational_holds_entered_numbers_partial :
  forall rnd, oracle_ok rnd -> forall ops s q, mode s = Auto -> InSync s -> ql s = Some q -> hist_ok rnd s ops -> hist_kept rnd s ops ->
    ql (run rnd s ops) = Some (spec_run (pmax s) q ops).
Proof. exact exact_history. Qed.
Print Assumptions C07_auto_rational_holds_entered_numbers_partial.

(* switching from ONLYREAL to AUTO starts such a history: the rational LP is the exact image of the real LP *)
Theorem C07_onlyreal_to_auto_exact_copy :
  forall rnd s, mode s = OnlyReal -> Inv s ->
    ql (step rnd s (SetMode Auto)) = Some (lp_map d2q (rl s)) /\ rl (step rnd s (SetMode Auto)) = rl s /\
    InSync (step rnd s (SetMode Auto)) /\ mode (step rnd s (SetMode Auto)) = Auto.
Proof. intros rnd s Hm (A & B & _). exact (onlyreal_to_auto_copy rnd s Hm A B). Qed.
Print Assumptions C07_onlyreal_to_auto_exact_copy.

(* In SYNCMODE_MANUAL, syncLPRational makes the rational LP the exact image of the real
   LP (whatever happened before) and recomputes the types; syncLPReal makes the real LP the rounded image of the
   rational LP (partial: the type arrays are not recomputed, so they must already match) *)
Theorem C07_manual_syncLPRational_establishes :
  forall rnd s, mode s = Manual -> Inv s ->
    ql (step rnd s SyncRat) = Some (lp_map d2q (rl s)) /\ rl (step rnd s SyncRat) = rl s /\ InSync (step rnd s SyncRat).
Proof. intros rnd s Hm (A & B & _). exact (manual_syncLPRational rnd s Hm A B). Qed.
Print Assumptions C07_manual_syncLPRational_establishes.

Theorem C07_manual_syncLPReal_establishes_partial :
  forall rnd, oracle_ok rnd -> forall s q, mode s = Manual -> ql s = Some q -> types_ok s q -> WF2 q ->
    rl (step rnd s SyncReal) = lp_map (rnd RConv) q /\ ql (step rnd s SyncReal) = Some q /\ InSync (step rnd s SyncReal).
Proof. exact manual_syncLPReal. Qed.
Print Assumptions C07_manual_syncLPReal_establishes_partial.

(* What an exact solve does first in SYNCMODE_ONLYREAL *)
Theorem C07_onlyreal_sync_exact_copy :
  forall rnd s, mode s = OnlyReal -> Inv s ->
    ql (step rnd s ExactSolveSync) = Some (lp_map d2q (rl s)) /\ rl (step rnd s ExactSolveSync) = rl s /\
    InSync (step rnd s ExactSolveSync).
Proof. intros rnd s Hm (A & B & _). exact (onlyreal_exact_solve_copy rnd s Hm A B). Qed.
Print Assumptions C07_onlyreal_sync_exact_copy.

(* The classification used by the exact solver always matches the rational bounds: outside SYNCMODE_ONLYREAL (where
   the arrays are not maintained and every way out recomputes them) the type arrays are the classification of the
   rational bounds with threshold INFTY, in every state reachable by valid calls of either interface in any mode *)
Theorem C07_types_always_match :
  forall rnd s o, Inv s -> TypesInv s -> valid_op rnd s o = true -> TypesInv (step rnd s o).
Proof. exact types_always. Qed.
Print Assumptions C07_types_always_match.

(* its parts: every call of the rational interface (AUTO and MANUAL), the real interface outside AUTO ... *)
Theorem C07_types_match_after_rational_call :
  forall rnd s qo, mode s <> OnlyReal -> Inv s -> TypesOK s -> valid_op rnd s (OQ qo) = true -> TypesOK (step rnd s (OQ qo)).
Proof. intros rnd s qo _ (_ & _ & C & _). exact (types_step_rational rnd s qo C). Qed.
Print Assumptions C07_types_match_after_rational_call.

Theorem C07_types_untouched_by_real_call_outside_auto :
  forall rnd s ro, mode s <> Auto -> TypesOK s -> TypesOK (step rnd s (OR ro)).
Proof. exact types_step_real_not_auto. Qed.
Print Assumptions C07_types_untouched_by_real_call_outside_auto.

(* ... and two histories on which the arrays match because changeRow/Col/Range/BoundsReal classify with the INFTY
   parameter and setIntParam(SYNCMODE, MANUAL) recomputes the arrays when it comes from ONLYREAL: *)
(* setRealParam(INFTY,1e20); changeRangeReal(0,-1e30,1): _rowTypes and the rational bounds both say UPPER *)
Theorem C07_types_match_with_small_infty :
  forall rnd, valid_run rnd init hist_gap = true /\ mode (run rnd init hist_gap) = Auto /\
              TypesOK (run rnd init hist_gap) /\ rty (run rnd init hist_gap) = [TUpper].
Proof. exact gap_types_ok. Qed.
Print Assumptions C07_types_match_with_small_infty.

(* AUTO, add a row, ONLYREAL, MANUAL, addRowRational(1 <= 2 x0 <= 1): the row is FIXED in _rowTypes *)
Theorem C07_types_match_after_onlyreal_to_manual :
  forall rnd, valid_run rnd init hist_stale = true /\ mode (run rnd init hist_stale) = Manual /\
              TypesOK (run rnd init hist_stale) /\ rty (run rnd init hist_stale) = [TFixed].
Proof. exact stale_types_ok. Qed.
Print Assumptions C07_types_match_after_onlyreal_to_manual.

Theorem C07_types_recomputed_on_onlyreal_to_manual :
  forall rnd s, mode s = OnlyReal -> TypesOK (step rnd s (SetMode Manual)).
Proof. exact onlyreal_to_manual_types. Qed.
Print Assumptions C07_types_recomputed_on_onlyreal_to_manual.

(* Refuted for every oracle: calls that are valid and still break the statement of the property *)
(* MANUAL, addColReal, AUTO: setIntParam(SYNCMODE, AUTO) does not synchronise when it comes from MANUAL *)
Theorem C07_in_sync_on_entering_auto_from_manual_refuted :
  forall rnd, exists h, valid_run rnd init h = true /\ mode (run rnd init h) = Auto /\ ~ InSync (run rnd init h).
Proof. exact (fun rnd => ex_intro _ hist_manual_auto (manual_auto_refutes rnd)). Qed.
Print Assumptions C07_in_sync_on_entering_auto_from_manual_refuted.

(* changeElementRational(0,0,1e-20) / changeElementReal(0,0,1e-20): the entry is deleted from the rational LP *)
Theorem C07_rational_holds_entered_element_refuted :
  forall rnd, valid_run rnd init hist_elem_eps = true /\
    exists q, ql (run rnd init hist_elem_eps) = Some q /\
              ~ (nth 0 (nth 0 (mat q) []) qzero == 1 # 100000000000000000000)%Q.
Proof. exact elem_eps_refutes. Qed.
Print Assumptions C07_rational_holds_entered_element_refuted.

Theorem C07_rational_holds_entered_real_element_refuted :
  forall rnd, valid_run rnd init hist_elem_eps_real = true /\
    exists q, ql (run rnd init hist_elem_eps_real) = Some q /\ ~ (nth 0 (nth 0 (mat q) []) qzero == d2q d1em20)%Q.
Proof. exact elem_eps_real_refutes. Qed.
Print Assumptions C07_rational_holds_entered_real_element_refuted.

(* changeElementRational(0,0,const mpq_t pointer to 1e-330): the zero test is made on the rational, so the rational LP
   holds the number although its double image is 0 *)
Theorem C07_rational_holds_entered_gmp_element :
  forall rnd, valid_run rnd init hist_elem_gmp_tiny = true /\
    exists q, ql (run rnd init hist_elem_gmp_tiny) = Some q /\ nth 0 (nth 0 (mat q) []) qzero = Qmake 1 (10 ^ 330).
Proof. exact elem_gmp_tiny_kept. Qed.
Print Assumptions C07_rational_holds_entered_gmp_element.

(* every call of the real interface is benign *)
Theorem C07_real_interface_always_benign : forall rnd s ro, benign rnd s (OR ro).
Proof. exact benign_real. Qed.
Print Assumptions C07_real_interface_always_benign.

(* Refuted for the conversions as the linked libraries perform them (rnd_impl: nearest-even for the conversion
 operator, truncation for mpq_get_d; compared with the libraries on every run of the check) *)
(* changeElementRational(0,0,const mpq_t pointer to 1e-20): stays in the rational LP (as entered), deleted from the real LP
   by the epsilon rule of SPxLPBase<double>::changeElement *)
Theorem C07_auto_gmp_element_in_sync_refuted :
exists h, valid_run rnd_impl init h = true /\ mode (run rnd_impl init h) = Auto /\ ~ InSync (run rnd_impl init h).
Proof. exact (ex_intro _ hist_elem_gmp elem_gmp_refutes). Qed.
Print Assumptions C07_auto_gmp_element_in_sync_refuted.

(* addRowRational with entries {0: 1/3, 3: 1e-400} on a one-column LP: 4 rational columns, 1 real column *)
Theorem C07_auto_dimensions_agree_refuted :
exists h, valid_run rnd_impl init h = true /\ mode (run rnd_impl init h) = Auto /\ ~ InSync (run rnd_impl init h).
Proof. exact (ex_intro _ hist_underflow underflow_refutes). Qed.
Print Assumptions C07_auto_dimensions_agree_refuted.

(* Sense: in every reachable state (SenseOK holds for a new object) both LPs have the sense of the OBJSENSE parameter;
   in particular the sense condition in "benign" for the GMP addCol entry points always holds *)
Theorem C07_sense_follows_parameter : forall rnd s o, SenseOK s -> SenseOK (step rnd s o).
Proof. exact step_SenseOK. Qed.
Print Assumptions C07_sense_follows_parameter.

(* The assumption about the conversions can be met: truncation towards zero, saturating at the largest double *)
Theorem C07_oracle_assumption_satisfiable : oracle_ok rnd_sat.
Proof. exact rnd_sat_adj. Qed.
Print Assumptions C07_oracle_assumption_satisfiable.

(* Examples: the hypotheses are satisfiable by non-trivial states and histories, and what the theorems say there. *)
Example ex_init_types : TypesInv init.
Proof. exact TypesInv_init. Qed.

Example ex_init_sense : SenseOK init.
Proof. exact SenseOK_init. Qed.

Example ex_init_inv : Inv init.
Proof.
  split; [exact RealOK_empty|]. split; [apply WF2_empty|]. split; [discriminate|]. intros H. now elim H.
Qed.

(* a new object switched to SYNCMODE_AUTO *)
Definition s_auto : state := step rnd_sat init (SetMode Auto).
Example ex_auto_start : InSync s_auto /\ mode s_auto = Auto.
Proof. destruct (C07_onlyreal_to_auto_exact_copy rnd_sat init eq_refl ex_init_inv) as (_ & _ & H1 & H2). now split. Qed.

(* the double 1/2 *)
Definition dh : dy := (1%Z, (-1)%Z).
(* both interfaces interleaved: a column from each side, rows with non-representable fractions (1/3, 22/7, 1/10) and an
   implicitly created column, an infinite side, the GMP element and right-hand-side entry points, a sense change, a removal *)
Definition ex_ops : list op :=
  [ OR (RAddCol (dI 1, dI 0, dinf, []));
    OQ (QAddCol false ((1 # 3)%Q, 0%Q, 2%Q, []));
    OR (RAddRow (dI (-1), dI 5, [(0, dI 1); (1, dh)]));
    OQ (QAddRow false ((-1 # 3)%Q, (10 # 3)%Q, [(0, (1 # 3)%Q); (2, (22 # 7)%Q)]));
    OQ (QLhs 0 (1 # 10)%Q);
    OR (RRange 1 (dneg dinf) (dI 7));
    OQ (QElem true 0 1 (1 # 3)%Q);
    OQ (QAddRow false (0%Q, 1%Q, [(1, (1 # 7)%Q)]));
    SetSense false;
    OQ (QObj 0 (1 # 7)%Q);
    OR (RRemRow 0);
    SetOffset dh;
    OQ (GRhsV [(9 # 2)%Q]);
    OR (RElem 0 0 (dI 3)) ].

Example ex_hist_ok : hist_ok rnd_sat s_auto ex_ops.
Proof. unfold ex_ops. cbn [hist_ok]. vm_compute. repeat split; auto. Qed.

Example ex_hist_kept : hist_kept rnd_sat s_auto ex_ops.
Proof. unfold ex_ops. cbn [hist_kept]. lazy. repeat split; auto. Qed.   (* lazy: only EPSILON_ZERO of each state is read *)

Example ex_result_in_sync : InSync (run rnd_sat s_auto ex_ops) /\ mode (run rnd_sat s_auto ex_ops) = Auto.
Proof.
  destruct ex_auto_start as [H1 H2].
  exact (C07_auto_history_InSync_partial rnd_sat C07_oracle_assumption_satisfiable ex_ops s_auto H2 H1 ex_hist_ok).
Qed.

(* the final state: 2 rows, 3 columns in both LPs; the last row moved into the hole (0 <= . <= 9/2), the other one is free
   below (UPPER) *)
Example ex_result_shape :
  let s := run rnd_sat s_auto ex_ops in
  (nrows (rl s), ncols (rl s)) = (2, 3) /\ option_map (fun q => (nrows q, ncols q)) (ql s) = Some (2, 3) /\
  rty s = [TBoxed; TUpper] /\ cty s = [TLower; TBoxed; TLower].
Proof. vm_compute. repeat split; reflexivity. Qed.

(* SYNCMODE_MANUAL: the two LPs are edited independently and then synchronised in either direction *)
Definition ex_manual_ops : list op :=
  [ SetMode Manual; OR (RAddCol (dI 1, dI 0, dinf, [])); OQ (QAddCol false ((1 # 3)%Q, (-1 # 7)%Q, 2%Q, [])) ].
Example ex_manual_valid : valid_run rnd_sat init ex_manual_ops = true /\ mode (run rnd_sat init ex_manual_ops) = Manual.
Proof. vm_compute. split; reflexivity. Qed.
Example ex_manual_inv : Inv (run rnd_sat init ex_manual_ops).
Proof.
  unfold ex_manual_ops, run. cbn [fold_left].
  repeat (apply (C07_invariant_step rnd_sat C07_oracle_assumption_satisfiable); [|vm_compute; reflexivity]).
  exact ex_init_inv.
Qed.
(* before the sync the rational LP has the rational column only; afterwards it is the exact image of the real LP *)
Example ex_manual_syncRat :
  let s := run rnd_sat init ex_manual_ops in
  option_map (@mobj Q) (ql s) = Some [(1 # 3)%Q] /\
  ql (step rnd_sat s SyncRat) = Some (lp_map d2q (rl s)) /\ InSync (step rnd_sat s SyncRat).
Proof.
  split; [vm_compute; reflexivity|].
  destruct (C07_manual_syncLPRational_establishes rnd_sat (run rnd_sat init ex_manual_ops)
              (proj2 ex_manual_valid) ex_manual_inv) as (H1 & _ & H3).
  now split.
Qed.
