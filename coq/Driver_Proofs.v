(* Proofs about the solve-driver model (DriverModel.v): termination for every oracle, the OPTIMAL gate, proofs offered
   with ENSURERAY, stored solutions live in the user's problem space. *)
From Coq Require Import ZArith List Bool Lia.
From SV Require Import DriverModel Driver_Lemmas.
Import ListNotations.
Local Open Scope Z_scope.

Definition b2n (b : bool) : nat := if b then 1%nat else 0%nat.

(* how many more calls of _preprocessAndSolveReal(false) a call can cause at most: a scaled LP may be solved again after
   un-scaling it, with and then without the objective limit; an unscaled one once more without the limit *)
Definition cost (sc ol : bool) : nat := (2 * b2n sc + b2n ol)%nat.
Definition mu (s : dstate) : nat := cost (scaled s) (objlim_en s).

(* whatever is offered to the user (a checked solution, a ray, a Farkas proof) lives in the user's problem space *)
Definition Good (s : dstate) : Prop :=
  (sol_ok s || has_ray s || has_farkas s) = true -> is_user_space (sol_space s) = true.

(* what optimize() promises of the state it returns: the driver theorems at the end, except driver_terminates, are its
   projections *)
Definition Final (P : dparams) (s : dstate) : Prop :=
  Good s /\
  (status s = OPTIMAL -> sol_ok s = true) /\
  (p_ensureray P = true -> status s = INFEASIBLE -> has_farkas s = true) /\
  (p_ensureray P = true -> status s = UNBOUNDED -> has_ray s = true).

(* [a]: may _applyPolishing be set in the result *)
Definition RecOK (P : dparams) (a : bool) (r : res) : Prop :=
  match r with Done s => Final P s /\ (apply_pol s = true -> a = true) | OutOfFuel => False | Impossible _ => True end.

(* the LP in the solver: an internal scaling or a simplified LP is never the user's loaded LP *)
Definition LPinv (s : dstate) : Prop :=
  (intl s = true -> sol_scaled s = true /\ loaded s = false) /\ (simp_on s = true -> loaded s = false).

Lemma RecOK_weaken P a r : RecOK P false r -> RecOK P a r.
Proof. destruct r; cbn; auto. intros [H1 H2]. split; auto. intros H. discriminate (H2 H). Qed.

(* 3 is the largest cost, so a first call and at most three more are made: FUEL = 5 leaves one to spare *)
Lemma cost_le3 sc ol : (cost sc ol <= 3)%nat.
Proof. destruct sc, ol; cbn; lia. Qed.

Arguments zb : simpl never.

(* One call of _preprocessAndSolveReal, by induction on the measure: [rec] stands for the recursive call, [m] bounds the
   measure of the states it may be called on, and [Hrec] is the induction hypothesis.  Each lemma of the section says of one
   function of the driver that its result is [RecOK], under hypotheses that give every recursive call it makes a state
   with measure below [m] (a call after which anything may follow: [3 < m]). *)
Section Body.
Variable P : dparams.
Variable orc : nat -> orec.
Variable rec : bool -> dstate -> res.
Variable m : nat.
Hypothesis Hrec : forall s, (mu s < m)%nat -> Good s -> RecOK P false (rec false s).

Lemma rec_ok a s : (mu s < m)%nat -> Good s -> RecOK P a (rec false s).
Proof. intros Hm HG. apply RecOK_weaken, Hrec; assumption. Qed.

Lemma rec_ok3 a s : (3 < m)%nat -> Good s -> RecOK P a (rec false s).
Proof. intros H3. apply rec_ok. pose proof (cost_le3 (scaled s) (objlim_en s)). unfold mu. lia. Qed.

(* a final state that claims nothing: no OPTIMAL, and no verdict that would have to come with a ray *)
Lemma Done_ok a s :
  Good s -> status s <> OPTIMAL ->
  (p_ensureray P = true -> status s <> INFEASIBLE /\ status s <> UNBOUNDED) ->
  (apply_pol s = true -> a = true) -> RecOK P a (Done s).
Proof.
  intros HG Ho Hv Ha. split; [|exact Ha]. split; [exact HG|]. split; [intros E; destruct (Ho E)|].
  split; intros He E; destruct (Hv He) as [H1 H2]; [destruct (H1 E) | destruct (H2 E)].
Qed.

Lemma verify_sol_spec o s a :
  (apply_pol s = true -> a = true) ->
  is_user_space (sol_space s) = true ->
  (p_ensureray P = true -> status s = INFEASIBLE -> has_farkas s = true) ->
  (p_ensureray P = true -> status s = UNBOUNDED -> has_ray s = true) ->
  (cost false (objlim_en s) < m)%nat ->
  RecOK P a (verify_sol rec o s).
Proof.
  sdestr s. drv_eval verify_sol. intros Ha Hsp Hf Hr Hm.
  destruct (o_vbits o) as [[[b1 b2] b3] b4]. cbn [any_viol].
  destruct (b1 || b2 || b3 || b4).
  - apply rec_ok; [destruct scd; exact Hm | intros _; exact Hsp].
  - split; [|exact Ha]. split; [intros _; exact Hsp|]. split; [reflexivity|]. split; assumption.
Qed.

(* the measure of the state _verifyObjLimitReal solves again: it switches the objective limit off when neither scaler nor
   simplifier is active, and un-scales the LP otherwise *)
Definition vobj_mu (s : dstate) : nat :=
  if negb (scaler_on s) && negb (simp_on s) then cost (scaled s) false else cost false (objlim_en s).

Lemma verify_obj_spec o s a :
  (apply_pol s = true -> a = true) ->
  is_user_space (sol_space s) = true ->
  status s = ABORT_VALUE ->
  (vobj_mu s < m)%nat ->
  RecOK P a (verify_obj rec o s).
Proof.
  sdestr s. unfold vobj_mu. drv_eval verify_obj. intros Ha Hsp Hst Hm.
  destruct (o_vbits o) as [[[b1 b2] b3] b4].
  destruct (negb (o_dualfeas o) || b3 || b4).
  - apply rec_ok; [|intros _; exact Hsp].
    unfold mu. cbn [scaled objlim_en]. destruct (negb sc && negb so), scd; exact Hm.
  - subst stt. apply Done_ok; [intros _; exact Hsp | discriminate | split; discriminate | exact Ha].
Qed.

Arguments verify_sol : simpl never.
Arguments verify_obj : simpl never.

Definition is_abort_value (t : st) : bool := match t with ABORT_VALUE => true | _ => false end.

Lemma store_spec o verify s a :
  (apply_pol s = true -> a = true) ->
  (* the gate: an OPTIMAL answer is stored without verification only if it was computed on the user's LP itself *)
  (status s = OPTIMAL -> verify = true \/ (simp_on s = false /\ intl s = false /\ scaled s = false)) ->
  (p_ensureray P = true -> status s = INFEASIBLE \/ status s = UNBOUNDED -> loaded s = true) ->
  LPinv s ->
  (simp_on s = true -> (3 < m)%nat) ->
  (verify = true -> is_abort_value (status s) = false -> (cost false (objlim_en s) < m)%nat) ->
  (verify = true -> is_abort_value (status s) = true -> (vobj_mu s < m)%nat) ->
  RecOK P a (store rec o verify s).
Proof.
  sdestr s. unfold LPinv, vobj_mu. drv_eval store. intros Ha Hgate Hens [Hint Hsimp] Hmt Hmv Hmo.
  destruct (so && o_throw o) eqn:Hthrow.
  - apply andb_true_iff in Hthrow as [-> _].
    apply rec_ok3; [exact (Hmt eq_refl) | rewrite (Hsimp eq_refl); destruct stt; intros H; discriminate H].
  - assert (Hspace : is_user_space {| l_simp := false; l_int := if ss && negb ld then false else il; l_pers := false |} = true).
    { destruct il; [destruct (Hint eq_refl) as [-> ->]; reflexivity | destruct (ss && negb ld); reflexivity]. }
    destruct verify.
    + destruct stt;
        try (apply verify_sol_spec;
             [ exact Ha
             | exact Hspace
             | intros He Hs; try discriminate Hs; apply Hens; auto
             | intros He Hs; try discriminate Hs; apply Hens; auto
             | apply Hmv; reflexivity ]).
      apply verify_obj_spec; [ exact Ha | exact Hspace | reflexivity | exact (Hmo eq_refl eq_refl) ].
    + split; [|exact Ha]. split; [intros _; exact Hspace|]. cbn [status has_farkas has_ray sol_ok]. split; [|split].
      * intros Hst. destruct (Hgate Hst) as [H | (-> & -> & ->)]; [discriminate H | reflexivity].
      * intros He ->. apply Hens; auto.
      * intros He ->. apply Hens; auto.
Qed.

Arguments store : simpl never.

(* _storeSolutionReal for a caller that asks for no verification and whose status is not OPTIMAL *)
Lemma store_plain o s a :
  (apply_pol s = true -> a = true) -> status s <> OPTIMAL ->
  (p_ensureray P = true -> status s = INFEASIBLE \/ status s = UNBOUNDED -> loaded s = true) ->
  LPinv s -> (simp_on s = true -> (3 < m)%nat) ->
  RecOK P a (store rec o false s).
Proof.
  intros Ha Ho Hens Hinv H3. apply store_spec; try assumption; try discriminate. intros E. destruct (Ho E).
Qed.

Lemma store_from_presol_spec o s a :
  (apply_pol s = true -> a = true) ->
  Good s -> status s = OPTIMAL -> (3 < m)%nat ->
  RecOK P a (store_from_presol rec o s).
Proof.
  sdestr s. drv_eval store_from_presol. intros Ha HG -> Hm.
  destruct (o_throw o).
  - apply rec_ok3; [exact Hm | exact HG].
  - apply verify_sol_spec; try (intros; discriminate); [exact Ha | reflexivity |].
    pose proof (cost_le3 false oe). cbn [objlim_en]. lia.
Qed.

Lemma resolve_spec o s a :
  Good s -> (3 < m)%nat -> RecOK P a (resolve rec o s).
Proof. sdestr s. drv_eval resolve. intros HG Hm. apply rec_ok3; [exact Hm | exact HG]. Qed.

Arguments store_from_presol : simpl never.
Arguments resolve : simpl never.

Lemma bind_spec r k a a' :
  RecOK P a' r ->
  (forall s', Final P s' -> (apply_pol s' = true -> a' = true) -> RecOK P a (k s')) ->
  RecOK P a (bind r k).
Proof. destruct r as [s' | | s']; cbn; auto. intros [HF Hap] Hk. apply Hk; auto. Qed.

(* The hypotheses are what _preprocessAndSolveReal has established when it calls _evaluateSolutionReal (pas_body_spec): the
   solver's LP is in order, an active scaler has scaled a loaded LP, the objective limit is on; and the budget: a verdict
   of the simplifier, a copied LP or a pending polishing pass occur only in the first call ([3 < m]), a later call on the
   loaded LP has the measure of its state left. *)
Lemma evaluate_spec o sres en s a :
  (apply_pol s = true -> a = true) ->
  Good s -> LPinv s ->
  (loaded s = true -> scaler_on s = true -> scaled s = true) ->
  (sres <> S_OKAY -> (3 < m)%nat) ->
  (loaded s = false \/ apply_pol s = true -> (3 < m)%nat) ->
  (loaded s = true -> (cost (scaled s) en <= m)%nat) ->
  objlim_en s = true ->
  RecOK P a (evaluate P rec o sres en s).
Proof.
  sdestr s. unfold LPinv. drv_eval evaluate. intros Ha HG [Hint Hsimp] Hls Hsres Hbig Hload ->.
  assert (Hinv : forall hb' t tr', LPinv (Build_dstate so sc ld scd ss il hb' t hs hr hf ap true oc uc sp ok fr tr'))
    by (intros; exact (conj Hint Hsimp)).
  assert (Hso : so = true -> (3 < m)%nat) by (intros Hs; apply Hbig; left; exact (Hsimp Hs)).
  assert (Hnl : ld = false -> (3 < m)%nat) by (intros Hs; apply Hbig; left; exact Hs).
  (* an answer for the loaded, unscaled LP was computed on the user's LP itself; any other is verified, and a violation
     found then leaves a solve of the unscaled LP within the budget *)
  assert (Hgate : negb ld || scd = true \/ (so = false /\ il = false /\ scd = false)).
  { destruct ld, scd; auto. right. destruct so; [discriminate (Hsimp eq_refl)|].
    destruct il; [destruct (Hint eq_refl) as [_ H]; discriminate H | auto]. }
  assert (Hver : negb ld || scd = true -> (cost false true < m)%nat).
  { destruct ld; cbn [negb orb]; [intros ->; specialize (Hload eq_refl) | specialize (Hnl eq_refl)]; cbn in *; lia. }
  (* goals in the order of the constructors: S_OKAY, then S_INFEASIBLE, S_DUAL_INFEASIBLE, S_UNBOUNDED (2-4), S_VANISHED *)
  destruct sres.
  2-4: destruct (p_ensureray P) eqn:He;
         [ apply rec_ok3; [apply Hsres; discriminate | exact HG]
         | apply Done_ok; [exact HG | discriminate | rewrite He; discriminate | exact Ha] ].
  2: apply store_from_presol_spec; [exact Ha | exact HG | reflexivity | apply Hsres; discriminate].
  (* goals in the order of the constructors of [st]: 1 OPTIMAL, 2 UNBOUNDED, 3 INFEASIBLE, 4 INForUNBD, 5 OPT_UNSCALED_VIOL,
     6 SINGULAR, 7 ABORT_VALUE, 8 ABORT_CYCLING, 9 ABORT_TIME, 10 ABORT_ITER, 11 REGULAR, 12 RUNNING, 13 OTHER; each group
     below closes its goals, the numbers of the later groups count what is left *)
  destruct (o_status o) eqn:Hos.
  (* OPT_UNSCALED_VIOL, OTHER *)
  5, 13: apply Done_ok; [exact HG | discriminate | split; discriminate | exact Ha].
  (* ABORT_TIME, ABORT_ITER, REGULAR, RUNNING *)
  8-11: apply store_plain; [exact Ha | discriminate | intros _ [H | H]; discriminate H | apply Hinv | exact Hso].
  (* UNBOUNDED, INFEASIBLE, INForUNBD: without the loaded LP and with ENSURERAY solve again, otherwise store *)
  2-4: destruct (negb ld && p_ensureray P) eqn:Hc;
         [ apply resolve_spec; [exact HG | apply Hnl; destruct ld; [discriminate Hc | reflexivity]]
         | apply store_plain;
             [ exact Ha | discriminate
             | intros He _; rewrite He in Hc; destruct ld; [reflexivity | discriminate Hc] | apply Hinv | exact Hso ] ].
  - (* OPTIMAL: store, then the polishing re-solve *)
    apply bind_spec with (a' := ap).
    + apply store_spec;
        [auto | intros _; exact Hgate | intros _ [H | H]; discriminate H | apply Hinv | exact Hso | intros Hv _; exact (Hver Hv)
        | intros _ H; discriminate H].
    + intros s' HF Hap. destruct s' as [? ? ? ? ? ? ? ? ? ? ? ap' ? ? ? ? ? ? ?]. cbv beta iota. destruct ap'.
      * apply rec_ok3; [apply Hbig; right; exact (Hap eq_refl) | exact (proj1 HF)].
      * split; [exact HF | intros H; discriminate H].
  - (* SINGULAR *)
    destruct ld.
    + apply Done_ok; [exact HG | discriminate | split; discriminate | exact Ha].
    + apply rec_ok3; [apply Hnl; reflexivity | exact HG].
  - (* ABORT_VALUE *)
    destruct en; [ | exact I].
    apply store_spec;
      [exact Ha | discriminate | intros _ [H | H]; discriminate H | apply Hinv | exact Hso | intros _ H; discriminate H | ].
    intros _ _. unfold vobj_mu. cbn [scaler_on simp_on scaled objlim_en]. destruct ld.
    + specialize (Hload eq_refl).
      destruct so; [discriminate (Hsimp eq_refl)|]. destruct sc.
      * rewrite (Hls eq_refl eq_refl) in Hload. cbn in *. lia.
      * destruct scd; cbn in *; lia.
    + specialize (Hnl eq_refl). pose proof (cost_le3 scd false). pose proof (cost_le3 false true).
      destruct (negb sc && negb so); lia.
  - (* ABORT_CYCLING *)
    destruct (negb ld || scd) eqn:Hc.
    + apply store_spec;
        [exact Ha | discriminate | intros _ [H | H]; discriminate H | apply Hinv | exact Hso | intros _ _; exact (Hver eq_refl)
        | intros _ H; discriminate H].
    + apply store_spec; [exact Ha | | | apply Hinv | exact Hso | intros H; discriminate H | intros H; discriminate H].
      * intros _. destruct Hgate as [H | H]; [discriminate H | right; exact H].
      * intros _ _. destruct ld; [reflexivity | discriminate Hc].
Qed.

Arguments evaluate : simpl never.

Lemma pas_body_spec apply s :
  Good s -> (apply = true -> (3 < m)%nat) -> (apply = false -> (mu s <= m)%nat) ->
  RecOK P (apply && p_simp P) (pas_body P orc rec apply s).
Proof.
  unfold pas_body, Good, mu. sdestr s. cbn [sol_ok has_ray has_farkas sol_space scaled objlim_en frame]. intros HG Ht Hf.
  set (o := orc fr).
  apply evaluate_spec; unfold LPinv, Good; drv_eval pas_setup; unfold pas_sres.
  - auto.
  - exact HG.
  - split.
    + destruct apply, (p_simp P), (p_scaler P), scd, sc, (o_scaled o), (o_simp o); cbn; intros; try discriminate; auto.
    + destruct apply, (p_simp P), (p_scaler P), scd, sc; cbn; intros; try discriminate; auto.
  - destruct apply, (p_simp P), (p_scaler P), scd, sc; cbn; intros; try discriminate; auto.
  - destruct apply; [intros _; apply Ht; reflexivity|]. cbn. intros H. exfalso. apply H. reflexivity.
  - destruct apply; [intros _; apply Ht; reflexivity|].
    destruct (p_simp P), (p_scaler P), scd, sc; cbn; intros [H | H]; discriminate H.
  - intros _. destruct apply; [|exact (Hf eq_refl)].
    pose proof (cost_le3 scd oe). specialize (Ht eq_refl). lia.
  - reflexivity.
Qed.

End Body.

Lemma pas_false_ok P orc : forall n s, (mu s <= n)%nat -> Good s -> RecOK P false (pas P orc (S n) false s).
Proof.
  induction n as [|n IH]; intros s Hm HG; cbn [pas].
  - apply (pas_body_spec P orc (pas P orc 0) 0 (fun s' H => ltac:(lia)) false s HG); [discriminate | intros _; exact Hm].
  - apply (pas_body_spec P orc (pas P orc (S n)) (S n) (fun s' H HG' => IH s' ltac:(lia) HG') false s HG);
      [discriminate | intros _; exact Hm].
Qed.

Lemma pas_ok P orc apply s : Good s -> RecOK P (apply && p_simp P) (pas P orc FUEL apply s).
Proof.
  intros HG. unfold FUEL. cbn [pas].
  apply (pas_body_spec P orc (pas P orc 4) 4).
  - intros s' _ HG'. apply (pas_false_ok P orc 3); [apply cost_le3 | exact HG'].
  - exact HG.
  - intros _. lia.
  - intros _. pose proof (cost_le3 (scaled s) (objlim_en s)). unfold mu. lia.
Qed.

Lemma opt_pre_good P osc s0 : Good (opt_pre P osc s0).
Proof. destruct s0. intros H. discriminate H. Qed.

Lemma optimize_ok P orc osc s0 : RecOK P (negb (has_basis s0) && negb (p_objlim P) && p_simp P) (optimize P orc osc FUEL s0).
Proof. rewrite optimize_eq. apply pas_ok, opt_pre_good. Qed.

Theorem driver_terminates P orc osc s0 : optimize P orc osc FUEL s0 <> OutOfFuel.
Proof. pose proof (optimize_ok P orc osc s0) as H. intros E. rewrite E in H. exact H. Qed.

Theorem optimal_is_gated P orc osc s0 r :
  optimize P orc osc FUEL s0 = Done r -> status r = OPTIMAL -> sol_ok r = true.
Proof. pose proof (optimize_ok P orc osc s0) as H. intros E. rewrite E in H. destruct H as [(_ & H & _) _]. exact H. Qed.

Theorem ensureray_offers_proof P orc osc s0 r :
  p_ensureray P = true -> optimize P orc osc FUEL s0 = Done r ->
  (status r = INFEASIBLE -> has_farkas r = true) /\ (status r = UNBOUNDED -> has_ray r = true).
Proof.
  pose proof (optimize_ok P orc osc s0) as H. intros He E. rewrite E in H. destruct H as [(_ & _ & H1 & H2) _]. auto.
Qed.

Theorem offered_solution_in_user_space P orc osc s0 r :
  optimize P orc osc FUEL s0 = Done r ->
  (sol_ok r || has_ray r || has_farkas r) = true -> is_user_space (sol_space r) = true.
Proof. pose proof (optimize_ok P orc osc s0) as H. intros E. rewrite E in H. destruct H as [(H & _) _]. exact H. Qed.
