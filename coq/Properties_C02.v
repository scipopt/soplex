(* C02 - Infeasible/unbounded verdicts are never wrong; rays and Farkas proofs are valid. *)
From Coq Require Import QArith Qabs List Bool.
From SV Require Import Vec LP Cert Cert_Proofs DriverModel Driver_Proofs Driver_Honest.
Import ListNotations.
Local Open Scope Q_scope.

(* A Farkas vector accepted by the checker proves that the user's LP has no feasible point. *)
Theorem C02_farkas_proves_infeasibility :
  forall p y, check_farkas p y = true -> infeasible p.
Proof. exact farkas_sound. Qed.
Print Assumptions C02_farkas_proves_infeasibility.

(* Floating-point Farkas vectors carry rounding-level coefficients on unbounded columns; accepted on the M-box of the LP
   they exclude every feasible point whose entries are bounded by M. *)
Theorem C02_farkas_on_box :
  forall M p y, check_farkas (box M p) y = true ->
    forall x, feasible p x -> ~ (forall j, (j < ncols p)%nat -> - M <= vnth x j /\ vnth x j <= M).
Proof. exact farkas_box_sound. Qed.
Print Assumptions C02_farkas_on_box.

(* An accepted ray keeps every bound and side satisfied from any feasible point, for every step length, and the
   objective improves strictly and linearly: the LP has no finite optimum. *)
Theorem C02_ray_keeps_feasible_and_improves :
  forall p x0 r, feasible p x0 -> check_ray p r = true ->
    forall t, 0 <= t ->
      feasible p (along x0 r t) /\
      objective p (along x0 r t) == objective p x0 + t * dot (objvec p) r /\
      (0 < t -> strictly_better p (objective p (along x0 r t)) (objective p x0)).
Proof. exact ray_sound. Qed.
Print Assumptions C02_ray_keeps_feasible_and_improves.

Theorem C02_ray_means_unbounded :
  forall p x0 r, feasible p x0 -> check_ray p r = true -> unbounded p.
Proof. exact ray_unbounded. Qed.
Print Assumptions C02_ray_means_unbounded.

(* tolerance version for floating-point rays: the violation grows at most linearly with the step *)
Theorem C02_ray_with_tolerance :
  forall e0 e p x0 r, feasible_tol e0 p x0 -> check_ray_tol e p r = true ->
    forall t, 0 <= t ->
      feasible_tol (e0 + t * e) p (along x0 r t) /\
      objective p (along x0 r t) == objective p x0 + t * dot (objvec p) r /\
      (0 < t -> strictly_better p (objective p (along x0 r t)) (objective p x0)).
Proof. exact ray_tol_sound. Qed.
Print Assumptions C02_ray_with_tolerance.

(* The three kinds of certificate exclude each other: a solver can never be right with two different verdicts. *)
Theorem C02_certificates_exclusive :
  forall p x y yf x0 r,
    (check_opt_exact p x y = true -> check_farkas p yf = true -> False) /\
    (check_opt_exact p x y = true -> feasible p x0 -> check_ray p r = true -> False) /\
    (check_farkas p yf = true -> feasible p x0 -> False).
Proof. exact certificates_exclusive. Qed.
Print Assumptions C02_certificates_exclusive.

(* With ENSURERAY the solve driver (model of solvereal.hpp, DriverModel.v; tied to the code by replaying every recorded
   control trace) never ends INFEASIBLE without a Farkas vector or UNBOUNDED without a primal ray - whatever the simplifier,
   the scalers and the simplex engine answer, including verdicts found by presolve and verdicts on a scaled or presolved LP. *)
Theorem C02_ensureray_offers_proof :
  forall P orc oscaled s0 r, p_ensureray P = true -> optimize P orc oscaled FUEL s0 = Done r ->
    (status r = INFEASIBLE -> has_farkas r = true) /\ (status r = UNBOUNDED -> has_ray r = true).
Proof. exact ensureray_offers_proof. Qed.
Print Assumptions C02_ensureray_offers_proof.

(* and the offered vector has been mapped back to the user's problem space *)
Theorem C02_offered_proof_in_user_space :
  forall P orc oscaled s0 r, optimize P orc oscaled FUEL s0 = Done r ->
    (sol_ok r || has_ray r || has_farkas r) = true -> is_user_space (sol_space r) = true.
Proof. exact offered_solution_in_user_space. Qed.
Print Assumptions C02_offered_proof_in_user_space.

(* Non-vacuity *)
Definition ex_orec (sr : simp) (t : st) : orec :=
  {| o_simp := sr; o_scaled := true; o_status := t; o_throw := false; o_vbits := (false, false, false, false);
     o_dualfeas := true; o_cycstatus := ABORT_CYCLING; o_resbasis := true |}.
Definition ex_state : dstate :=
  {| simp_on := false; scaler_on := true; loaded := true; scaled := false; sol_scaled := false; intl := false;
     has_basis := false; status := OTHER 0; has_sol := false; has_ray := false; has_farkas := false; apply_pol := false;
     objlim_en := true; opt_calls := 0; unsc_calls := 0; sol_space := user_space; sol_ok := false; frame := O; trace := [] |}.
(* presolve detects infeasibility: with ENSURERAY the original LP is solved again and a Farkas vector is offered; without
   it the verdict is reported as it is, with no proof *)
Example C02_ex_ensureray :
  match optimize {| p_simp := true; p_scaler := true; p_persist := true; p_ensureray := true; p_objlim := false |}
                 (fun k => if Nat.eqb k 0 then ex_orec S_INFEASIBLE (OTHER 0) else ex_orec S_OKAY INFEASIBLE) true FUEL ex_state,
        optimize {| p_simp := true; p_scaler := true; p_persist := true; p_ensureray := false; p_objlim := false |}
                 (fun k => ex_orec S_INFEASIBLE (OTHER 0)) true FUEL ex_state with
  | Done r, Done r' => status r = INFEASIBLE /\ has_farkas r = true /\ frame r = 2%nat /\ status r' = INFEASIBLE /\ has_farkas r' = false
  | _, _ => False
  end.
Proof. vm_compute. repeat split. Qed.

Definition ex_inf : lp :=
  {| maximize := false; offset := 0;
     cols := [ {| c_obj := 1; c_lo := Some 0; c_up := Some 1 |} ];
     rows := [ {| r_lhs := Some 3; r_coef := [1]; r_rhs := None |} ] |}.
Example C02_ex_farkas : check_farkas ex_inf [1] = true.
Proof. vm_compute. reflexivity. Qed.
(* A verdict INFEASIBLE / UNBOUNDED the driver ends with is the verdict of its LAST pass: the inner solve's status (after
   cycling: the status of the feasibility test) or the simplifier's verdict; for every oracle, setting, start state, fuel. *)
Theorem C02_verdict_from_last_pass : forall P orc oscaled fuel s0 s' t,
  optimize P orc oscaled fuel s0 = Done s' -> DriverModel.status s' = t -> (t = DriverModel.INFEASIBLE \/ t = DriverModel.UNBOUNDED) ->
  exists f, frame s' = S f /\
    (o_status (orc f) = t \/ (o_status (orc f) = DriverModel.ABORT_CYCLING /\ o_cycstatus (orc f) = t) \/
     (p_simp P = true /\ (o_simp (orc f) = S_INFEASIBLE /\ t = DriverModel.INFEASIBLE \/ o_simp (orc f) = S_UNBOUNDED /\ t = DriverModel.UNBOUNDED))).
Proof. exact verdict_from_last_pass. Qed.
Print Assumptions C02_verdict_from_last_pass.

Definition ex_unb : lp :=
  {| maximize := true; offset := 0;
     cols := [ {| c_obj := 1; c_lo := Some 0; c_up := None |}; {| c_obj := 0; c_lo := None; c_up := Some 2 |} ];
     rows := [ {| r_lhs := None; r_coef := [1; -1]; r_rhs := Some 5 |} ] |}.
Example C02_ex_ray : feasible_b ex_unb [0; 0] = true /\ check_ray ex_unb [1; 1] = false /\ check_ray ex_unb [1; 0] = false.
Proof. vm_compute. repeat split. Qed.
Definition ex_unb2 : lp :=
  {| maximize := true; offset := 0;
     cols := [ {| c_obj := 1; c_lo := Some 0; c_up := None |}; {| c_obj := 0; c_lo := Some 0; c_up := None |} ];
     rows := [ {| r_lhs := None; r_coef := [1; -1]; r_rhs := Some 5 |} ] |}.
Example C02_ex_ray2 : feasible_b ex_unb2 [0; 0] = true /\ check_ray ex_unb2 [1; 1] = true.
Proof. vm_compute. repeat split. Qed.
