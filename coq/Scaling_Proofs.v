(* C09 - scaling is exact.  Exponent-indexed maps ([map_exp], [map_lp]) and their round trips; the binary64 level:
   [ldexp_ieee] is exact inside the guard [d_in_range]; how row activities, objective and column combinations of an LP over Q
   transform under [apply_scaling]; changes of data under an active scaling; the stored double LP denotes the exact scaling
   of the LP the user's doubles denote. *)
From Coq Require Import ZArith QArith Qpower List Bool Lia Lqa Setoid Morphisms.
From SV Require Import ListAux Dbl ScalingModel.
Import ListNotations.
Local Open Scope Z_scope.

Lemma map_exp_length {T} (f : Z -> T -> T) es v : length (map_exp f es v) = length v.
Proof. revert es; induction v as [|x v IH]; intros es; simpl; auto. Qed.

Lemma Forall2_refl {T} (R : T -> T -> Prop) (l : list T) : (forall x, R x x) -> Forall2 R l l.
Proof. intros H; induction l; constructor; auto. Qed.

Lemma Forall2_eq {T} (l l' : list T) : Forall2 eq l l' -> l = l'.
Proof. induction 1; subst; auto. Qed.

(* composing two exponent-indexed maps whose entry functions are inverse: up to R everywhere, or exactly on entries inside a guard *)
Lemma map_exp_roundtrip {T} (R : T -> T -> Prop) (f g : Z -> T -> T) es v :
  (forall e x, R (g e (f e x)) x) -> Forall2 R (map_exp g es (map_exp f es v)) v.
Proof. intros H. revert es; induction v as [|x v IH]; intros es; simpl; constructor; auto. Qed.

Lemma map_exp_roundtrip_eq {T} (P : Z -> T -> Prop) (f g : Z -> T -> T) es v :
  (forall e x, P e x -> g e (f e x) = x) -> all_exp P es v -> map_exp g es (map_exp f es v) = v.
Proof.
  intros H. revert es; induction v as [|x v IH]; intros es; simpl; auto.
  intros [H1 H2]. rewrite H, IH; auto.
Qed.

Lemma map_exp_rel {T T'} (R : T -> T' -> Prop) (f : Z -> T -> T) (f' : Z -> T' -> T') es v v' :
  (forall e x x', R x x' -> R (f e x) (f' e x')) -> Forall2 R v v' -> Forall2 R (map_exp f es v) (map_exp f' es v').
Proof. intros Hf H. revert es; induction H; intros es; simpl; constructor; auto. Qed.

(* an entrywise map [h] into another type commutes, up to R and inside a guard, with the exponent-indexed maps *)
Lemma map_map_exp_rel {T U} (R : U -> U -> Prop) (P : Z -> T -> Prop) (h : T -> U) (f : Z -> T -> T) (g : Z -> U -> U) es v :
  (forall e x, P e x -> R (h (f e x)) (g e (h x))) -> all_exp P es v ->
  Forall2 R (map h (map_exp f es v)) (map_exp g es (map h v)).
Proof.
  intros H. revert es; induction v as [|x v IH]; intros es; simpl.
  - constructor.
  - intros [H1 H2]. constructor; auto.
Qed.

Lemma nth_map_exp_rel {T} (R : T -> T -> Prop) (f : Z -> T -> T) es v d j :
  (forall x, R x x) -> (forall e, R d (f e d)) ->
  R (nth j (map_exp f es v) d) (f (nth j es 0) (nth j v d)).
Proof.
  intros Hr Hd. revert es j; induction v as [|x v IH]; intros es j; simpl.
  - destruct j; apply Hd.
  - destruct j.
    + rewrite <- hd_nth_0. apply Hr.
    + rewrite <- nth_tl. apply IH.
Qed.

Lemma nth_map_exp_in {T} (f : Z -> T -> T) es v d j :
  (j < length v)%nat -> nth j (map_exp f es v) d = f (nth j es 0) (nth j v d).
Proof.
  revert es j; induction v as [|x v IH]; intros es j Hj; simpl in *.
  - lia.
  - destruct j.
    + now rewrite <- hd_nth_0.
    + rewrite <- nth_tl. apply IH. lia.
Qed.

Lemma map_exp_set_nth {T} (f : Z -> T -> T) es v j x :
  map_exp f es (set_nth j x v) = set_nth j (f (nth j es 0) x) (map_exp f es v).
Proof.
  revert es j; induction v as [|y v IH]; intros es j; simpl.
  - destruct j; reflexivity.
  - destruct j; simpl.
    + now rewrite <- hd_nth_0.
    + rewrite <- nth_tl. now rewrite IH.
Qed.

Lemma map_exp_snoc {T} (f : Z -> T -> T) es v e x :
  length es = length v -> map_exp f (es ++ [e]) (v ++ [x]) = map_exp f es v ++ [f e x].
Proof.
  revert es; induction v as [|y v IH]; intros es Hl; simpl.
  - destruct es; simpl in *; [reflexivity | discriminate].
  - destruct es as [|e0 es]; simpl in *; [discriminate|].
    rewrite IH; auto.
Qed.

Lemma map_exp_short {T} (f : Z -> T -> T) es e v :
  length es = length v -> map_exp f (es ++ [e]) v = map_exp f es v.
Proof.
  revert es; induction v as [|y v IH]; intros es Hl; simpl; auto.
  destruct es as [|e0 es]; simpl in *; [discriminate|].
  rewrite IH; auto.
Qed.

Lemma map_exp_ext {T} (f g : Z -> T -> T) es v :
  (forall e x, f e x = g e x) -> map_exp f es v = map_exp g es v.
Proof.
  intros H; revert es; induction v as [|x v IH]; intros es; simpl; auto.
  now rewrite H, IH.
Qed.

Lemma map_map_exp {T U} (h : T -> U) (f : Z -> T -> T) (g : Z -> U -> U) es v :
  all_exp (fun e x => h (f e x) = g e (h x)) es v -> map h (map_exp f es v) = map_exp g es (map h v).
Proof. intros H. apply Forall2_eq. revert H. apply map_map_exp_rel. auto. Qed.

(* the binary64 level, as far as it speaks of mantissas and exponents only *)

Lemma ldexp_zero e k : ldexp_ieee (DFin 0 e) k = DFin 0 e.
Proof. reflexivity. Qed.

(* |m| >= 1, so a value below 2^1024 has an exponent below 1024 *)
Lemma no_overflow_exp m e' :
  m <> 0 -> EMIN <= e' -> Z.abs m * 2 ^ (e' - EMIN) < 2 ^ (EOVER - EMIN) -> e' < EOVER.
Proof.
  intros Hm He Hov.
  destruct (Z_lt_le_dec e' EOVER) as [|Hge]; [assumption|exfalso].
  assert (2 ^ (EOVER - EMIN) <= 2 ^ (e' - EMIN)) by (apply Z.pow_le_mono_r; lia).
  assert (0 < 2 ^ (e' - EMIN)) by (apply Z.pow_pos_nonneg; lia).
  assert (1 <= Z.abs m) by lia.
  nia.
Qed.

(* below a quarter of the smallest subnormal the value rounds to zero *)
Lemma round_to_grid_tiny m e' : m <> 0 -> e' < EMIN - Z.log2_up (Z.abs m) - 2 -> round_to_grid m e' = 0.
Proof.
  intros Hm He. unfold round_to_grid.
  set (s := EMIN - e').
  pose proof (Z.log2_up_nonneg (Z.abs m)) as Hl.
  assert (Habs : Z.abs m <= 2 ^ Z.log2_up (Z.abs m)) by (apply Z.log2_log2_up_spec; lia).
  assert (Hpow : 2 ^ Z.log2_up (Z.abs m) < 2 ^ (s - 1)) by (apply Z.pow_lt_mono_r; unfold s; lia).
  assert (Hss : 2 ^ s = 2 * 2 ^ (s - 1)) by (rewrite <- Z.pow_succ_r by (unfold s; lia); f_equal; lia).
  destruct (Z_lt_le_dec m 0) as [Hneg|Hpos].
  - (* floor quotient -1, remainder m + 2^s > half *)
    rewrite <- (Z.div_unique m (2 ^ s) (-1) (m + 2 ^ s)), <- (Z.mod_unique m (2 ^ s) (-1) (m + 2 ^ s)) by lia.
    destruct (Z.ltb_spec (m + 2 ^ s) (2 ^ (s - 1))); [lia|].
    destruct (Z.ltb_spec (2 ^ (s - 1)) (m + 2 ^ s)); [reflexivity|lia].
  - rewrite Z.div_small, Z.mod_small by lia.
    destruct (Z.ltb_spec m (2 ^ (s - 1))); [reflexivity|lia].
Qed.

(* the two shortcuts of ldexp_ieee do not change its value *)
Lemma ldexp_shortcuts_agree x k : ldexp_ieee x k = ldexp_ieee_plain x k.
Proof.
  destruct x as [| | |m e]; try reflexivity.
  unfold ldexp_ieee, ldexp_ieee_plain.
  destruct (Z.eqb_spec m 0) as [->|Hm]; [reflexivity|].
  assert (0 <= Z.log2_up (Z.abs m)) as Hl by apply Z.log2_up_nonneg.
  destruct (Z.leb_spec EOVER (e + k)) as [Hge|Hlt].
  - destruct (Z.ltb_spec (e + k) EMIN) as [H1|H1]; [unfold EMIN, EOVER in *; lia|].
    destruct (Z.leb_spec (2 ^ (EOVER - EMIN)) (Z.abs m * 2 ^ (e + k - EMIN))) as [|Hsmall]; [reflexivity|].
    exfalso. pose proof (no_overflow_exp m (e + k) Hm H1 Hsmall). lia.
  - destruct (Z.ltb_spec (e + k) (EMIN - Z.log2_up (Z.abs m) - 2)) as [Htiny|_]; [|reflexivity].
    destruct (Z.ltb_spec (e + k) EMIN) as [_|H1]; [|lia].
    now rewrite round_to_grid_tiny.
Qed.

(* ldexp is exact when no bit is shifted out below 2^-1074 and the result stays below 2^1024 *)
Lemma ldexp_exact m e k :
  m <> 0 -> EMIN <= e + k -> Z.abs m * 2 ^ (e + k - EMIN) < 2 ^ (EOVER - EMIN) ->
  ldexp_ieee (DFin m e) k = DFin m (e + k).
Proof.
  intros Hm He Hov. rewrite ldexp_shortcuts_agree. unfold ldexp_ieee_plain.
  destruct (Z.eqb_spec m 0) as [|_]; [contradiction|].
  destruct (Z.ltb_spec (e + k) EMIN) as [|_]; [lia|].
  destruct (Z.leb_spec (2 ^ (EOVER - EMIN)) (Z.abs m * 2 ^ (e + k - EMIN))) as [|_]; [lia|].
  reflexivity.
Qed.

Lemma ldexp_exact_in_range_lemma m e k :
  representable m e -> m <> 0 -> EMIN <= e + k -> Z.abs m * 2 ^ (e + k - EMIN) < 2 ^ (EOVER - EMIN) ->
  ldexp_ieee (DFin m e) k = DFin m (e + k) /\ representable m (e + k).
Proof.
  intros Hr Hm He Hov. split.
  - now apply ldexp_exact.
  - destruct Hr as [->|(Hp & _ & _)]; [congruence|]. right. auto.
Qed.

(* a 53-bit mantissa whose scaled value is a normal double has an exponent of at least EMIN: ldexp_exact applies, no bit is lost *)
Lemma normal_no_bits_lost m e' : Z.abs m < 2 ^ PREC -> normal m e' -> EMIN <= e'.
Proof.
  unfold normal, PREC, EMIN. intros Hp Hn.
  destruct (Z_lt_le_dec e' (-1074)) as [Hlt|]; [|assumption].
  exfalso.
  assert (2 ^ 53 <= 2 ^ (-1022 - e')) by (apply Z.pow_le_mono_r; lia).
  lia.
Qed.

Lemma ldexp_fin_cases m e k : fin_ok m e k -> ldexp_ieee (DFin m e) k = DFin m e /\ m = 0 \/ ldexp_ieee (DFin m e) k = DFin m (e + k) /\ m <> 0.
Proof.
  intros [->|(H1 & H2 & H3 & H4)]; [left; split; reflexivity|].
  destruct (Z.eq_dec m 0) as [->|Hm]; [left; split; reflexivity|].
  right. split; auto. now apply ldexp_exact.
Qed.

Lemma val_roundtrip x a b : a + b = 0 -> val_ok x a -> ldexp_ieee (ldexp_ieee x a) b = x.
Proof.
  intros Hab H. destruct x as [| | |m e]; try reflexivity.
  destruct (ldexp_fin_cases m e a H) as [[-> ->]|[-> Hm]]; [reflexivity|].
  destruct H as [|(H1 & _ & H3 & _)]; [contradiction|].
  assert (e + a + b = e) as Hz by lia.
  rewrite ldexp_exact; rewrite ?Hz; auto.
Qed.

(* [dl_upper] and [dl_lower] are [guarded] for the two finiteness tests [t], and [upper_ok] / [lower_ok] are [test_ok]
   for them: inside the guard a datum that passes the test still passes it after the shift *)
Definition guarded (t : dbl -> bool) (x : dbl) (k : Z) : dbl := if t x then ldexp_ieee x k else x.
Definition test_ok (t : dbl -> bool) (x : dbl) (k : Z) : Prop :=
  match x with DFin m e => fin_ok m e k /\ (t x = true -> t (DFin m (e + k)) = true) | _ => True end.

Lemma test_kept t x k : test_ok t x k -> val_ok x k /\ (t x = true -> t (ldexp_ieee x k) = true).
Proof.
  destruct x as [| | |m e]; cbn [test_ok val_ok]; auto. intros [Hf Ht]. split; [assumption|].
  destruct (ldexp_fin_cases m e k Hf) as [[-> _]|[-> _]]; auto.
Qed.

Lemma guarded_roundtrip t x a b : a + b = 0 -> test_ok t x a -> guarded t (guarded t x a) b = x.
Proof.
  intros Hab H. destruct (test_kept t x a H) as [Hv Ht]. unfold guarded at 2.
  destruct (t x) eqn:E; unfold guarded.
  - rewrite (Ht eq_refl). now apply val_roundtrip.
  - now rewrite E.
Qed.

Lemma d_unscale_scale_id_lemma r c (p : lpD) : d_in_range r c p -> d_unscale r c (d_apply_scaling r c p) = p.
Proof.
  destruct p as [o l u lh rh ro A].
  unfold d_in_range, lp_all, d_unscale, d_apply_scaling, map_lp; cbn [obj lo up lhs rhs robj mat].
  intros (H1 & H2 & H3 & H4 & H5 & H6 & H7).
  f_equal.
  - revert H1. apply map_exp_roundtrip_eq. intros e x. apply val_roundtrip. lia.
  - revert H2. apply map_exp_roundtrip_eq. intros e x. apply (guarded_roundtrip (fun y => dlt dninf y)). lia.
  - revert H3. apply map_exp_roundtrip_eq. intros e x. apply (guarded_roundtrip (fun y => dlt y dinf)). lia.
  - revert H4. apply map_exp_roundtrip_eq. intros e x. apply (guarded_roundtrip (fun y => dlt dninf y)). lia.
  - revert H5. apply map_exp_roundtrip_eq. intros e x. apply (guarded_roundtrip (fun y => dlt y dinf)). lia.
  - revert H6. apply map_exp_roundtrip_eq. intros e x. apply val_roundtrip. lia.
  - revert H7. apply map_exp_roundtrip_eq. intros ri row.
    apply map_exp_roundtrip_eq. intros cj a. apply val_roundtrip. lia.
Qed.

(* the guarded vector getters are the components of d_unscale *)
Lemma d_guarded_getters_are_unscale r c (s : lpD) :
  d_getLowerUnscaled_guarded c s = lo (d_unscale r c s) /\
  d_getUpperUnscaled_guarded c s = up (d_unscale r c s) /\
  d_getLhsUnscaled_guarded r s = lhs (d_unscale r c s) /\
  d_getRhsUnscaled_guarded r s = rhs (d_unscale r c s) /\
  d_getMaxObjUnscaled c s = obj (d_unscale r c s).
Proof. repeat split. Qed.

(* an entry of a round trip through two exponent-indexed maps *)
Lemma nth_roundtrip_eq {T} (f g : Z -> T -> T) es v d j :
  map_exp g es (map_exp f es v) = v -> (j < length v)%nat -> g (nth j es 0) (nth j (map_exp f es v) d) = nth j v d.
Proof.
  intros E Hj. transitivity (nth j (map_exp g es (map_exp f es v)) d); [|now rewrite E].
  symmetry. apply nth_map_exp_in. now rewrite map_exp_length.
Qed.

(* on the scaled image of an LP in range the vector getters return its vectors, the single-index getters their entries *)
Lemma d_getters_see_original_lemma r c (p : lpD) :
  d_in_range r c p ->
  let s := d_apply_scaling r c p in
  d_getLowerUnscaled_guarded c s = lo p /\ d_getUpperUnscaled_guarded c s = up p /\
  d_getLhsUnscaled_guarded r s = lhs p /\ d_getRhsUnscaled_guarded r s = rhs p /\
  d_getMaxObjUnscaled c s = obj p /\
  (forall j, (j < length (lo p))%nat -> d_lowerUnscaled c s j = nth j (lo p) DNaN) /\
  (forall j, (j < length (up p))%nat -> d_upperUnscaled c s j = nth j (up p) DNaN) /\
  (forall i, (i < length (lhs p))%nat -> d_lhsUnscaled r s i = nth i (lhs p) DNaN) /\
  (forall i, (i < length (rhs p))%nat -> d_rhsUnscaled r s i = nth i (rhs p) DNaN) /\
  (forall j, (j < length (obj p))%nat -> d_maxObjUnscaled c s j = nth j (obj p) DNaN).
Proof.
  intros H s. pose proof (d_unscale_scale_id_lemma r c p H) as E.
  destruct (d_guarded_getters_are_unscale r c s) as (G1 & G2 & G3 & G4 & G5).
  fold s in E. rewrite E in G1, G2, G3, G4, G5.
  repeat split; auto; intros k Hk.
  - exact (nth_roundtrip_eq _ _ c (lo p) DNaN k G1 Hk).
  - exact (nth_roundtrip_eq _ _ c (up p) DNaN k G2 Hk).
  - exact (nth_roundtrip_eq _ _ r (lhs p) DNaN k G3 Hk).
  - exact (nth_roundtrip_eq _ _ r (rhs p) DNaN k G4 Hk).
  - exact (nth_roundtrip_eq _ _ c (obj p) DNaN k G5 Hk).
Qed.

(* the exact level: numbers are rationals *)
Local Open Scope Q_scope.

Lemma two_nonzero : ~ (2 # 1) == 0.
Proof. discriminate. Qed.

Lemma pow2_pos k : 0 < pow2 k.
Proof. unfold pow2. apply Qpower_0_lt. reflexivity. Qed.

Lemma pow2_add a b : pow2 (a + b) == pow2 a * pow2 b.
Proof. unfold pow2. apply Qpower_plus. exact two_nonzero. Qed.

Lemma pow2_0 : pow2 0 == 1.
Proof. reflexivity. Qed.

Lemma pow2_cancel a b : (a + b = 0)%Z -> pow2 a * pow2 b == 1.
Proof. intros H. rewrite <- pow2_add, H. reflexivity. Qed.

Global Instance qldexp_proper : Proper (Qeq ==> eq ==> Qeq) qldexp.
Proof. intros x y H k k' <-. unfold qldexp. now rewrite H. Qed.

Lemma qldexp_qldexp x a b : qldexp (qldexp x a) b == qldexp x (a + b).
Proof. unfold qldexp. rewrite pow2_add. ring. Qed.

Lemma qldexp_0 x : qldexp x 0 == x.
Proof. unfold qldexp. rewrite pow2_0. ring. Qed.

Lemma qldexp_cancel x a b : (a + b = 0)%Z -> qldexp (qldexp x a) b == x.
Proof. intros H. rewrite qldexp_qldexp, H. apply qldexp_0. Qed.

Lemma qldexp_zero k : qldexp 0 k == 0.
Proof. unfold qldexp. ring. Qed.

Lemma qldexp_le x y k : x <= y <-> qldexp x k <= qldexp y k.
Proof. unfold qldexp. symmetry. apply Qmult_le_r. apply pow2_pos. Qed.

Lemma qldexp_plus x y k : qldexp (x + y) k == qldexp x k + qldexp y k.
Proof. unfold qldexp. ring. Qed.

Lemma qldexp_minus x y k : qldexp (x - y) k == qldexp x k - qldexp y k.
Proof. unfold qldexp. ring. Qed.

Lemma qldexp_mult_l x y k : qldexp (x * y) k == qldexp x k * y.
Proof. unfold qldexp. ring. Qed.

Lemma ext_eq_refl a : ext_eq a a.
Proof. destruct a; simpl; auto. reflexivity. Qed.

Lemma ext_eq_sym a b : ext_eq a b -> ext_eq b a.
Proof. destruct a, b; simpl; auto. intros H; now symmetry. Qed.

Lemma ext_eq_trans a b c : ext_eq a b -> ext_eq b c -> ext_eq a c.
Proof. destruct a, b, c; simpl; auto; try contradiction. intros H1 H2; now rewrite H1. Qed.

Lemma ext_ldexp_cancel x a b : (a + b = 0)%Z -> ext_eq (ext_ldexp (ext_ldexp x a) b) x.
Proof. intros H. destruct x; simpl; auto. now apply qldexp_cancel. Qed.

(* two exponent-indexed maps of an LP whose entry functions are inverse up to the relations *)
Lemma map_lp_roundtrip {V B} (RV : V -> V -> Prop) (RB : B -> B -> Prop)
    fobj flo fup flhs frhs frobj fa gobj glo gup glhs grhs grobj ga r c (p : lpT V B) :
  (forall e x, RV (gobj e (fobj e x)) x) -> (forall e x, RB (glo e (flo e x)) x) -> (forall e x, RB (gup e (fup e x)) x) ->
  (forall e x, RB (glhs e (flhs e x)) x) -> (forall e x, RB (grhs e (frhs e x)) x) -> (forall e x, RV (grobj e (frobj e x)) x) ->
  (forall ri cj a, RV (ga ri cj (fa ri cj a)) a) ->
  lp_rel RV RB (map_lp gobj glo gup glhs grhs grobj ga r c (map_lp fobj flo fup flhs frhs frobj fa r c p)) p.
Proof.
  intros H1 H2 H3 H4 H5 H6 H7. unfold lp_rel, map_lp; cbn [obj lo up lhs rhs robj mat].
  repeat split; apply map_exp_roundtrip; auto.
  intros ri row. apply map_exp_roundtrip. auto.
Qed.

(* at the exact level every entry function is a multiplication by 2^k, undone by 2^-k *)
Lemma unscale_scale_id_lemma r c (p : lpQ) : lp_eq (unscale r c (apply_scaling r c p)) p.
Proof. apply map_lp_roundtrip; intros; first [apply qldexp_cancel | apply ext_ldexp_cancel]; lia. Qed.

(* and the other way round: scaling an unscaled LP with the same exponents *)
Lemma scale_unscale_id_lemma r c (p : lpQ) : lp_eq (apply_scaling r c (unscale r c p)) p.
Proof. apply map_lp_roundtrip; intros; first [apply qldexp_cancel | apply ext_ldexp_cancel]; lia. Qed.

Lemma nth_qldexp (k : Z -> Z) es v j :
  nth j (map_exp (fun e x => qldexp x (k e)) es v) 0 == qldexp (nth j v 0) (k (nth j es 0%Z)).
Proof. apply (nth_map_exp_rel Qeq); intros; [reflexivity | symmetry; apply qldexp_zero]. Qed.

Lemma nth_map_exp_eq {T} (f : Z -> T -> T) es v d j :
  (forall e, f e d = d) -> nth j (map_exp f es v) d = f (nth j es 0%Z) (nth j v d).
Proof. intros H. apply (nth_map_exp_rel eq); auto. Qed.

Lemma coef_apply_scaling r c (p : lpQ) i j :
  coef (apply_scaling r c p) i j == qldexp (coef p i j) (nth j c 0%Z + nth i r 0%Z).
Proof.
  unfold coef, apply_scaling, map_lp; cbn [mat].
  rewrite nth_map_exp_eq by reflexivity.
  apply (nth_qldexp (fun cj => cj + nth i r 0)%Z).
Qed.

(* [ext_ldexp] leaves an infinite default alone, so a bound or side getter undoes the scaling of its entry *)
Lemma ext_nth_roundtrip (a b : Z -> Z) d es v j :
  (forall k, ext_ldexp d k = d) -> (forall e, a e + b e = 0)%Z ->
  ext_eq (ext_ldexp (nth j (map_exp (fun e x => ext_ldexp x (a e)) es v) d) (b (nth j es 0%Z))) (nth j v d).
Proof. intros Hd Hab. rewrite nth_map_exp_eq by (intros; apply Hd). apply ext_ldexp_cancel, Hab. Qed.

Lemma getters_see_original_lemma r c (p : lpQ) :
  (forall i j, coefUnscaled r c (apply_scaling r c p) i j == coef p i j) /\
  (forall j, maxObjUnscaled c (apply_scaling r c p) j == nth j (obj p) 0) /\
  (forall j, ext_eq (lowerUnscaled c (apply_scaling r c p) j) (nth j (lo p) NInf)) /\
  (forall j, ext_eq (upperUnscaled c (apply_scaling r c p) j) (nth j (up p) PInf)) /\
  (forall i, ext_eq (lhsUnscaled r (apply_scaling r c p) i) (nth i (lhs p) NInf)) /\
  (forall i, ext_eq (rhsUnscaled r (apply_scaling r c p) i) (nth i (rhs p) PInf)) /\
  (forall i, Forall2 Qeq (getRowUnscaled r c (apply_scaling r c p) i) (nth i (mat p) [])).
Proof.
  repeat split; intros.
  - unfold coefUnscaled. rewrite coef_apply_scaling. apply qldexp_cancel. lia.
  - unfold maxObjUnscaled, apply_scaling, map_lp; cbn [obj]. rewrite (nth_qldexp (fun e => e)). apply qldexp_cancel. lia.
  - exact (ext_nth_roundtrip Z.opp (fun e => e) NInf c (lo p) j (fun _ => eq_refl) Z.add_opp_diag_l).
  - exact (ext_nth_roundtrip Z.opp (fun e => e) PInf c (up p) j (fun _ => eq_refl) Z.add_opp_diag_l).
  - exact (ext_nth_roundtrip (fun e => e) Z.opp NInf r (lhs p) i (fun _ => eq_refl) Z.add_opp_diag_r).
  - exact (ext_nth_roundtrip (fun e => e) Z.opp PInf r (rhs p) i (fun _ => eq_refl) Z.add_opp_diag_r).
  - unfold getRowUnscaled, apply_scaling, map_lp; cbn [mat]. rewrite nth_map_exp_eq by reflexivity.
    apply map_exp_roundtrip. intros e x. apply qldexp_cancel. lia.
Qed.

Lemma dot_nil_r a : dot a [] = 0.
Proof. destruct a; reflexivity. Qed.

(* a scaled row times a scaled-space point = 2^ri * (row times the unscaled point) *)
Lemma dot_scale_row ri c a x :
  dot (map_exp (fun cj v => qldexp v (cj + ri)) c a) x == qldexp (dot a (unscalePrimal c x)) ri.
Proof.
  unfold unscalePrimal. revert c x; induction a as [|a0 a IH]; intros c x; simpl.
  - symmetry. apply qldexp_zero.
  - destruct x as [|x0 x]; simpl.
    + symmetry. apply qldexp_zero.
    + rewrite IH. rewrite qldexp_plus. apply Qplus_comp; [|reflexivity].
      unfold qldexp. rewrite pow2_add. ring.
Qed.

Lemma mat_vec_scaled r c A x :
  Forall2 Qeq (mat_vec (map_exp (fun ri row => map_exp (fun cj a => qldexp a (cj + ri)) c row) r A) x)
              (map_exp (fun ri v => qldexp v ri) r (mat_vec A (unscalePrimal c x))).
Proof.
  unfold mat_vec. revert r; induction A as [|row A IH]; intros r; simpl.
  - constructor.
  - constructor; [apply dot_scale_row | apply IH].
Qed.

(* objective: obj' . x' = obj . unscalePrimal x', a row with exponent 0 *)
Lemma dot_scale_obj c o x :
  dot (map_exp (fun cj v => qldexp v cj) c o) x == dot o (unscalePrimal c x).
Proof.
  rewrite (map_exp_ext _ (fun cj v => qldexp v (cj + 0)) c o) by (intros; now rewrite Z.add_0_r).
  rewrite dot_scale_row. apply qldexp_0.
Qed.

(* sides: y' . side' = unscaleDual y' . side, for finite sides given as rationals *)
Lemma dot_scale_side r b y :
  dot (map_exp (fun ri v => qldexp v ri) r b) y == dot b (unscaleDual r y).
Proof. exact (dot_scale_obj r b y). Qed.

(* (A'^T y')_j = 2^cj * (A^T unscaleDual y')_j *)
Lemma col_dot_scaled r c A y j :
  col_dot (map_exp (fun ri row => map_exp (fun cj a => qldexp a (cj + ri)) c row) r A) y j
  == qldexp (col_dot A (unscaleDual r y) j) (nth j c 0%Z).
Proof.
  unfold col_dot, unscaleDual. revert r y; induction A as [|row A IH]; intros r y; simpl.
  - symmetry. apply qldexp_zero.
  - destruct y as [|y0 y]; simpl.
    + symmetry. apply qldexp_zero.
    + rewrite IH. rewrite qldexp_plus. apply Qplus_comp; [|reflexivity].
      rewrite nth_qldexp.
      unfold qldexp. rewrite pow2_add. ring.
Qed.

Lemma within_Qeq l u v v' : v == v' -> within l u v <-> within l u v'.
Proof.
  intros H. unfold within. destruct l, u; simpl; try tauto; rewrite H; tauto.
Qed.

Lemma all_within_Qeq ls us vs vs' : Forall2 Qeq vs vs' -> all_within ls us vs <-> all_within ls us vs'.
Proof.
  intros H; revert ls us; induction H as [|v v' vs vs' Hv Hvs IH]; intros ls us.
  - tauto.
  - destruct ls as [|l ls], us as [|u us]; simpl; try tauto.
    rewrite (within_Qeq l u v v' Hv), IH. tauto.
Qed.

Lemma Forall2_Qeq_trans (a b c : list Q) : Forall2 Qeq a b -> Forall2 Qeq b c -> Forall2 Qeq a c.
Proof.
  intros H; revert c; induction H as [|x y a b Hxy Hab IH]; intros c Hc; inversion Hc; subst; constructor.
  - now rewrite Hxy. - auto.
Qed.

Lemma Forall2_Qeq_sym (a b : list Q) : Forall2 Qeq a b -> Forall2 Qeq b a.
Proof. induction 1; constructor; auto. now symmetry. Qed.

Lemma unscale_slacks_lemma r c (p : lpQ) x s :
  Forall2 Qeq s (mat_vec (mat (apply_scaling r c p)) x) ->
  Forall2 Qeq (unscaleSlacks r s) (mat_vec (mat p) (unscalePrimal c x)).
Proof.
  intros H.
  pose proof (Forall2_Qeq_trans _ _ _ H (mat_vec_scaled r c (mat p) x)) as H1.
  unfold unscaleSlacks.
  eapply Forall2_Qeq_trans.
  - apply map_exp_rel; [|exact H1]. intros e a b Hab. now rewrite Hab.
  - apply map_exp_roundtrip. intros e v. apply qldexp_cancel. lia.
Qed.

(* bounds and sides: l*2^a <= v <= u*2^a  <->  l <= v*2^-a <= u *)
Lemma within_shift l u v a b : (a + b = 0)%Z -> within (ext_ldexp l a) (ext_ldexp u a) v <-> within l u (qldexp v b).
Proof.
  intros H. rewrite (within_Qeq _ _ v (qldexp (qldexp v b) a)) by (symmetry; apply qldexp_cancel; lia).
  unfold within. destruct l, u; simpl; try tauto; rewrite <- ?qldexp_le; tauto.
Qed.

Lemma all_within_shift (a b : Z -> Z) es ls us vs :
  (forall e, a e + b e = 0)%Z ->
  all_within (map_exp (fun e l => ext_ldexp l (a e)) es ls) (map_exp (fun e u => ext_ldexp u (a e)) es us) vs
  <-> all_within ls us (map_exp (fun e v => qldexp v (b e)) es vs).
Proof.
  intros H. revert es us vs; induction ls as [|l ls IH]; intros es us vs.
  - destruct us, vs; simpl; tauto.
  - destruct us as [|u us], vs as [|x xs]; simpl; try tauto.
    rewrite (within_shift l u x _ _ (H _)), IH. tauto.
Qed.

(* the bounds hold of the unscaled point, the sides of the unscaled slacks *)
Lemma scaled_feasibility_transfer_lemma r c (p : lpQ) x :
  feasible (apply_scaling r c p) x <-> feasible p (unscalePrimal c x).
Proof.
  unfold feasible, apply_scaling, map_lp; cbn [lo up lhs rhs mat].
  rewrite (all_within_shift Z.opp (fun e => e)), (all_within_shift (fun e => e) Z.opp) by (intros; lia).
  rewrite (all_within_Qeq _ _ _ _ (unscale_slacks_lemma r c p x _ (Forall2_refl Qeq _ Qeq_refl))).
  reflexivity.
Qed.

Lemma unscale_redcost_lemma r c (p : lpQ) y d :
  (forall j, nth j d 0 == nth j (obj (apply_scaling r c p)) 0 - col_dot (mat (apply_scaling r c p)) y j) ->
  forall j, nth j (unscaleRedCost c d) 0 == nth j (obj p) 0 - col_dot (mat p) (unscaleDual r y) j.
Proof.
  intros H j. unfold unscaleRedCost.
  rewrite nth_qldexp.
  rewrite (H j). unfold apply_scaling, map_lp; cbn [obj mat].
  rewrite col_dot_scaled.
  rewrite nth_qldexp.
  rewrite qldexp_minus. rewrite !qldexp_cancel by lia. reflexivity.
Qed.

Lemma unscale_objective_lemma r c (p : lpQ) x :
  dot (obj (apply_scaling r c p)) x == dot (obj p) (unscalePrimal c x).
Proof. exact (dot_scale_obj c (obj p) x). Qed.

(* rays: the activity of a scaled ray is the activity of the unscaled ray times a positive factor, the
   objective along it is the same *)
Lemma unscale_primalray_lemma r c (p : lpQ) ray :
  Forall2 Qeq (mat_vec (mat (apply_scaling r c p)) ray)
              (map_exp (fun ri v => qldexp v ri) r (mat_vec (mat p) (unscalePrimalray c ray))) /\
  dot (obj (apply_scaling r c p)) ray == dot (obj p) (unscalePrimalray c ray).
Proof.
  split; [exact (mat_vec_scaled r c (mat p) ray) | exact (dot_scale_obj c (obj p) ray)].
Qed.

(* Farkas: the column combination of a scaled multiplier vector is the combination of the unscaled one
   times a positive factor *)
Lemma unscale_dualray_lemma r c (p : lpQ) y j :
  col_dot (mat (apply_scaling r c p)) y j == qldexp (col_dot (mat p) (unscaleDualray r y) j) (nth j c 0%Z).
Proof. exact (col_dot_scaled r c (mat p) y j). Qed.

(* edits of the LP under an active scaling *)

Lemma change_obj_consistent r c (p : lpQ) j v :
  apply_scaling r c (set_obj j v p) = set_obj j (scaleObj c j v) (apply_scaling r c p).
Proof. unfold apply_scaling, map_lp, set_obj, scaleObj; cbn [obj lo up lhs rhs robj mat]. now rewrite map_exp_set_nth. Qed.

Lemma change_lower_consistent r c (p : lpQ) j v :
  apply_scaling r c (set_lower j v p) = set_lower j (scaleLower c j v) (apply_scaling r c p).
Proof. unfold apply_scaling, map_lp, set_lower, scaleLower; cbn [obj lo up lhs rhs robj mat]. now rewrite map_exp_set_nth. Qed.

Lemma change_upper_consistent r c (p : lpQ) j v :
  apply_scaling r c (set_upper j v p) = set_upper j (scaleUpper c j v) (apply_scaling r c p).
Proof. unfold apply_scaling, map_lp, set_upper, scaleUpper; cbn [obj lo up lhs rhs robj mat]. now rewrite map_exp_set_nth. Qed.

Lemma change_lhs_consistent r c (p : lpQ) i v :
  apply_scaling r c (set_lhs i v p) = set_lhs i (scaleLhs r i v) (apply_scaling r c p).
Proof. unfold apply_scaling, map_lp, set_lhs, scaleLhs; cbn [obj lo up lhs rhs robj mat]. now rewrite map_exp_set_nth. Qed.

Lemma change_rhs_consistent r c (p : lpQ) i v :
  apply_scaling r c (set_rhs i v p) = set_rhs i (scaleRhs r i v) (apply_scaling r c p).
Proof. unfold apply_scaling, map_lp, set_rhs, scaleRhs; cbn [obj lo up lhs rhs robj mat]. now rewrite map_exp_set_nth. Qed.

Lemma change_element_consistent r c (p : lpQ) i j v :
  apply_scaling r c (set_elem i j v p) = set_elem i j (scaleElement r c i j v) (apply_scaling r c p).
Proof.
  unfold apply_scaling, map_lp, set_elem, scaleElement; cbn [obj lo up lhs rhs robj mat].
  f_equal. rewrite map_exp_set_nth. f_equal. rewrite map_exp_set_nth.
  f_equal. rewrite nth_map_exp_eq by reflexivity. reflexivity.
Qed.

Lemma add_row_consistent r c (p : lpQ) e l u ro row :
  lp_wf r c p ->
  apply_scaling (r ++ [e]) c (add_row l u ro row p)
  = add_row (ext_ldexp l e) (ext_ldexp u e) (qldexp ro e) (scale_row e c row) (apply_scaling r c p).
Proof.
  intros (_ & _ & _ & H4 & H5 & H6 & H7 & _).
  unfold apply_scaling, map_lp, add_row, scale_row; cbn [obj lo up lhs rhs robj mat].
  rewrite !map_exp_snoc by auto. reflexivity.
Qed.

Lemma snoc_col_scaled e r c (rows : list (list Q)) col :
  length rows = length r -> length col = length r -> Forall (fun row => length row = length c) rows ->
  map_exp (fun ri row => map_exp (fun cj a => qldexp a (cj + ri)) (c ++ [e]) row) r (snoc_col 0%Q rows col)
  = snoc_col 0%Q (map_exp (fun ri row => map_exp (fun cj a => qldexp a (cj + ri)) c row) r rows)
             (map_exp (fun ri a => qldexp a (e + ri)) r col).
Proof.
  revert r col; induction rows as [|row rows IH]; intros r col Hl Hc Hw; simpl.
  - reflexivity.
  - inversion Hw as [|? ? Hrow Hrows]; subst.
    destruct r as [|r0 r]; simpl in Hl; [discriminate|].
    destruct col as [|a col]; simpl in Hc; [discriminate|].
    cbn [hd tl map_exp]. rewrite map_exp_snoc by auto.
    rewrite IH by (auto; lia). reflexivity.
Qed.

Lemma add_col_consistent r c (p : lpQ) e o l u col :
  lp_wf r c p -> length col = length r ->
  apply_scaling r (c ++ [e]) (add_col 0%Q o l u col p)
  = add_col 0%Q (qldexp o e) (ext_ldexp l (- e)) (ext_ldexp u (- e)) (scale_col e r col) (apply_scaling r c p).
Proof.
  intros (H1 & H2 & H3 & _ & _ & _ & H7 & H8) Hc.
  unfold apply_scaling, map_lp, add_col, scale_col; cbn [obj lo up lhs rhs robj mat].
  rewrite !map_exp_snoc by auto.
  rewrite snoc_col_scaled by auto. reflexivity.
Qed.

(* what the user sees after a change under scaling is the changed datum, since the stored LP is the scaling of the changed LP *)
Lemma unscale_stored r c (p s : lpQ) : apply_scaling r c p = s -> lp_eq (unscale r c s) p.
Proof. intros <-. apply unscale_scale_id_lemma. Qed.

(* what the stored doubles denote *)

Lemma d2q_fin_shift m e k : d2q (DFin m (e + k)) == qldexp (d2q (DFin m e)) k.
Proof. unfold d2q, qldexp. rewrite pow2_add. ring. Qed.

Lemma d2q_ldexp x k : val_ok x k -> d2q (ldexp_ieee x k) == qldexp (d2q x) k.
Proof.
  destruct x as [| | |m e]; try (intros _; symmetry; apply qldexp_zero).
  intros H. destruct (ldexp_fin_cases m e k H) as [[H0 ->]|[H1 Hm]].
  - rewrite ldexp_zero. unfold d2q, qldexp. ring.
  - rewrite H1. apply d2q_fin_shift.
Qed.

(* [abs_upper] and [abs_lower] are [abs_bound] for the two tests, with the tag [d] of a datum that fails the test *)
Definition abs_bound (t : dbl -> bool) (d : ext) (x : dbl) : ext :=
  match x with DFin _ _ => if t x then Fin (d2q x) else d | DNaN => d | DPInf => PInf | DNInf => NInf end.

Lemma abs_bound_scaled t d x k :
  ext_ldexp d k = d -> test_ok t x k -> ext_eq (abs_bound t d (guarded t x k)) (ext_ldexp (abs_bound t d x) k).
Proof.
  intros Hd H. destruct (test_kept t x k H) as [Hv Ht]. pose proof (d2q_ldexp x k Hv) as Hq. unfold guarded.
  destruct x as [| | |m e]; try (destruct (t _); cbn [abs_bound ldexp_ieee]; rewrite ?Hd; apply ext_eq_refl).
  cbn [abs_bound]. destruct (t (DFin m e)) eqn:E.
  - specialize (Ht eq_refl).
    destruct (ldexp_fin_cases m e k Hv) as [[Hy _]|[Hy _]]; rewrite Hy in *; cbn [abs_bound]; rewrite Ht; exact Hq.
  - cbn [abs_bound]. rewrite E, Hd. apply ext_eq_refl.
Qed.

Lemma d_apply_refines_lemma r c (p : lpD) :
  d_in_range r c p -> lp_eq (abs_lp (d_apply_scaling r c p)) (apply_scaling r c (abs_lp p)).
Proof.
  destruct p as [o l u lh rh ro A].
  unfold d_in_range, lp_all, lp_eq, lp_rel, abs_lp, d_apply_scaling, apply_scaling, map_lp; cbn [obj lo up lhs rhs robj mat].
  intros (H1 & H2 & H3 & H4 & H5 & H6 & H7).
  split; [|split; [|split; [|split; [|split; [|split]]]]].
  - revert H1. apply map_map_exp_rel. intros e x. apply d2q_ldexp.
  - revert H2. apply map_map_exp_rel. intros e x. exact (abs_bound_scaled (fun y => dlt dninf y) NInf x _ eq_refl).
  - revert H3. apply map_map_exp_rel. intros e x. exact (abs_bound_scaled (fun y => dlt y dinf) PInf x _ eq_refl).
  - revert H4. apply map_map_exp_rel. intros e x. exact (abs_bound_scaled (fun y => dlt dninf y) NInf x _ eq_refl).
  - revert H5. apply map_map_exp_rel. intros e x. exact (abs_bound_scaled (fun y => dlt y dinf) PInf x _ eq_refl).
  - revert H6. apply map_map_exp_rel. intros e x. apply d2q_ldexp.
  - revert H7. apply (map_map_exp_rel (Forall2 Qeq)). intros ri row.
    apply map_map_exp_rel. intros cj a. apply d2q_ldexp.
Qed.
