(* C11 - The rational LU factorization is exact.
   Property theorems only; each is closed by [exact] of a lemma proved in LU_Proofs.v (shared with C10).

   Certifying-oracle reading: the exact Gaussian elimination of CLUFactorRational is a witness producer and is NOT
   modelled.  Every rational solve and every verdict of the implementation is passed on every run through the
   extracted checkers below with exact (==) comparison (checks/C11.py); the theorems say what acceptance means
   for matrices of every dimension. *)
From Coq Require Import List QArith Qabs Bool Arith ZArith.
From SV Require Import LUModel LU_Proofs.
Import ListNotations.
Local Open Scope Q_scope.

(* the checkers accept exactly the coefficient-wise exact solutions *)
Theorem C11_check_solve_right_exact :
  forall n B x b, check_solve_right n B x b = true <->
  (wf_mat n B = true /\ length x = n /\ length b = n /\
   forall i, (i < n)%nat -> nth i (mat_vec n B x) 0 == nth i b 0).
Proof. exact check_solve_right_sound_lemma. Qed.
Print Assumptions C11_check_solve_right_exact.

Theorem C11_check_solve_left_exact :
  forall n B x b, check_solve_left n B x b = true <->
  (wf_mat n B = true /\ length x = n /\ length b = n /\
   forall j, (j < n)%nat -> dot x (nth j B []) == nth j b 0).
Proof. exact check_solve_left_sound_lemma. Qed.
Print Assumptions C11_check_solve_left_exact.

(* for a certified nonsingular matrix an accepted answer is THE solution: it equals Binv b (resp. b^T Binv) *)
Theorem C11_accepted_solution_is_the_solution :
  forall n B Binv, regular_cert n B Binv = true ->
  (forall x y b, check_solve_right n B x b = true -> check_solve_right n B y b = true -> Forall2 Qeq x y) /\
  (forall b, length b = n -> check_solve_right n B (mat_vec n Binv b) b = true) /\
  (forall x y b, check_solve_left n B x b = true -> check_solve_left n B y b = true -> Forall2 Qeq x y) /\
  (forall b, length b = n -> check_solve_left n B (vec_mat b Binv) b = true).
Proof. exact regular_cert_unique_solution_lemma. Qed.
Print Assumptions C11_accepted_solution_is_the_solution.

(* "singular exactly when the determinant is zero", certificate form.  Proved: the two certificates exclude each
   other, so a SINGULAR verdict backed by a kernel vector and an OK verdict backed by an inverse are never both
   possible.  NOT proved in Coq (hence _partial): that every square matrix has one of the two certificates; on
   every run the untrusted exact reference elimination produces one of them for each generated matrix and the
   extracted checker validates it, so the verdict of the implementation is decided case by case. *)
Theorem C11_singular_verdict_exclusive_partial :
  forall n B v, singular_cert n B v = true -> forall Binv, regular_cert n B Binv = false.
Proof. exact singular_cert_no_inverse_lemma. Qed.
Print Assumptions C11_singular_verdict_exclusive_partial.

(* basis-inverse column / row queries: accepted answers are the column / row of the certified inverse *)
Theorem C11_inverse_col_exact :
  forall n B Binv c v, regular_cert n B Binv = true ->
  check_inverse_col n B c v = true -> Forall2 Qeq v (nth c Binv (vzero n)).
Proof. exact inverse_col_exact_lemma. Qed.
Print Assumptions C11_inverse_col_exact.

Theorem C11_inverse_row_exact :
  forall n B Binv r v, regular_cert n B Binv = true ->
  check_inverse_row n B r v = true ->
  length v = n /\ forall j, (j < n)%nat -> nth j v 0 == nth r (nth j Binv []) 0.
Proof. exact inverse_row_exact_lemma. Qed.
Print Assumptions C11_inverse_row_exact.

(* the basis matrix assembled from the rational LP: position i holds LP column bind_i, or the unit vector of row
   -1-bind_i for a slack *)
Theorem C11_basis_matrix_spec :
  forall m cols bind M, basis_matrix m cols bind = Some M ->
  length M = length bind /\
  forall i b, nth_error bind i = Some b -> exists c, basis_col m cols b = Some c /\ nth_error M i = Some c.
Proof. exact basis_matrix_spec_lemma. Qed.
Print Assumptions C11_basis_matrix_spec.

Theorem C11_basis_col_meaning :
  forall m cols, (forall j, basis_col m cols (Z.of_nat j) = nth_error cols j) /\
                 (forall r, (r < m)%nat -> basis_col m cols (- 1 - Z.of_nat r)%Z = Some (unit_vec m r)).
Proof. exact basis_col_meaning_lemma. Qed.
Print Assumptions C11_basis_col_meaning.

(* the certificate in the form the check uses it (inverse = integer matrix N over a common denominator d) *)
Theorem C11_regular_cert_scaled_sound :
  forall n B N d, regular_cert_scaled n B N d = true -> regular_cert n B (mscale (/ d) N) = true.
Proof. exact regular_cert_scaled_sound_lemma. Qed.
Print Assumptions C11_regular_cert_scaled_sound.

(* Homogeneity: the check clears denominators by scaling the matrix by s and the solution by t (s, t non-zero; the
   right-hand side by s t); the verdicts of the exact checkers do not change. *)
Theorem C11_exact_check_scale_invariant :
  forall n B x b s t, ~ s == 0 -> ~ t == 0 ->
  check_solve_right n (mscale s B) (vscale t x) (vscale (s * t) b) = check_solve_right n B x b /\
  check_solve_left n (mscale s B) (vscale t x) (vscale (s * t) b) = check_solve_left n B x b.
Proof. exact exact_check_scale_invariant_lemma. Qed.
Print Assumptions C11_exact_check_scale_invariant.

(* Satisfiable, non-trivial instances *)
Definition exB : mat := [[2#3; 1; 0]; [1; 1; 0]; [0; 3; 1#2]].
Definition exBinv : mat := [[-3; 3; 0]; [3; -2; 0]; [-18; 12; 2]].
Example ex_regular_scaled : regular_cert_scaled 3 exB (mscale 5 exBinv) 5 = true.
Proof. vm_compute. reflexivity. Qed.
Example ex_regular : regular_cert 3 exB exBinv = true.
Proof. vm_compute. reflexivity. Qed.
Example ex_inverse_col : check_inverse_col 3 exB 2 [-18; 12; 2] = true.
Proof. vm_compute. reflexivity. Qed.
Example ex_inverse_row : check_inverse_row 3 exB 1 [3; -2; 12] = true.
Proof. vm_compute. reflexivity. Qed.
(* a matrix that is singular although its rounding to doubles is not: 1/3 and 2/3 are not representable *)
Example ex_singular : singular_cert 2 [[1#3; 2#3]; [1#2; 1]] [3; -2] = true.
Proof. vm_compute. reflexivity. Qed.
Example ex_basis : basis_matrix 2 [[1; 2]; [3; 4]; [5; 6]] [2; -2]%Z = Some [[5; 6]; [0; 1]].
Proof. reflexivity. Qed.
Example ex_scale : check_solve_right 3 exB [1; 2; 4] [8#3; 15; 2] = true /\
                   check_solve_right 3 (mscale 6 exB) (vscale 5 [1; 2; 4]) (vscale 30 [8#3; 15; 2]) = true.
Proof. vm_compute. split; reflexivity. Qed.
