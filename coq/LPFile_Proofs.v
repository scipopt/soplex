(* C12 - proofs about the writer normalisations of LPFileModel.v *)
From Coq Require Import ZArith QArith Bool List Lia Lqa Setoid.
From SV Require Import ListAux LPFileModel.
Import ListNotations.
Local Open Scope Q_scope.

Lemma split_row_ok x r : Forall (row_ok x) (split_row r) <-> row_ok x r.
Proof.
  unfold split_row. destruct (is_ranged r); rewrite !Forall_cons_iff, Forall_nil_iff; unfold row_ok; cbn; tauto.
Qed.

Lemma split_ranges_feasible p x : feasible (split_ranges p) x <-> feasible p x.
Proof.
  unfold feasible, split_ranges; cbn [l_cols l_rows]. rewrite Forall_flat_map, !Forall_forall.
  split; intros [Hc H]; split; auto; intros r Hr; apply split_row_ok, H, Hr.
Qed.

Lemma split_ranges_equiv p : equiv_lp (split_ranges p) p.
Proof.
  split; [reflexivity|]. split.
  - apply split_ranges_feasible.
  - intros x. reflexivity.
Qed.

Lemma split_row_not_ranged r : Forall (fun r' => is_ranged r' = false) (split_row r).
Proof.
  unfold split_row. destruct (is_ranged r) eqn:E.
  - repeat constructor; unfold is_ranged; cbn; auto. now destruct (r_lhs r).
  - now repeat constructor.
Qed.

Lemma split_ranges_no_ranged p : Forall (fun r => is_ranged r = false) (l_rows (split_ranges p)).
Proof.
  unfold split_ranges; cbn. apply Forall_flat_map. apply Forall_forall. intros r _. apply split_row_not_ranged.
Qed.

Global Instance better_proper s : Proper (Qeq ==> Qeq ==> iff) (better s).
Proof. intros a a' Ea b b' Eb. destruct s; cbn; rewrite Ea, Eb; reflexivity. Qed.

Lemma optimal_transfer a b x :
  (forall y, feasible a y <-> feasible b y) ->
  (forall y, better (l_sense a) (objective a x) (objective a y) <-> better (l_sense b) (objective b x) (objective b y)) ->
  (optimal a x <-> optimal b x).
Proof.
  intros Hf Hb. unfold optimal. rewrite Hf.
  split; intros [H1 H2]; split; auto; intros y Hy; apply Hb, H2, Hf, Hy.
Qed.

Lemma equiv_optimal a b x : equiv_lp a b -> (optimal a x <-> optimal b x).
Proof. intros (Hs & Hf & Ho). apply optimal_transfer; [exact Hf | intros y; rewrite Hs, !Ho; reflexivity]. Qed.

Lemma dot_neg a x : dot (map Qopp a) x == - dot a x.
Proof.
  revert x. induction a as [|c a IH]; intros [|v x]; cbn; try lra.
  rewrite IH. lra.
Qed.

Lemma map_obj_neg cs : map c_obj (map neg_col cs) = map Qopp (map c_obj cs).
Proof. induction cs; cbn; congruence. Qed.

Lemma neg_cols_ok cs x : Forall2 col_ok (map neg_col cs) x <-> Forall2 col_ok cs x.
Proof. rewrite <- (map_id x) at 1. symmetry. apply (Forall2_map col_ok neg_col (fun v => v)). Qed.

Lemma mps_feasible p x : feasible (mps_max_to_min p) x <-> feasible p x.
Proof.
  unfold mps_max_to_min. destruct (l_sense p); [tauto|].
  unfold feasible; cbn [l_cols l_rows]. now rewrite neg_cols_ok.
Qed.

Lemma mps_objective p x :
  objective (mps_max_to_min p) x == match l_sense p with Min => objective p x | Max => - objective p x end.
Proof.
  unfold mps_max_to_min. destruct (l_sense p) eqn:E; [reflexivity|].
  unfold objective; cbn [l_offset l_cols]. rewrite map_obj_neg, dot_neg. lra.
Qed.

Lemma mps_sense p : l_sense (mps_max_to_min p) = Min.
Proof. unfold mps_max_to_min. destruct (l_sense p) eqn:E; auto. Qed.

Lemma mps_optimal p x : optimal (mps_max_to_min p) x <-> optimal p x.
Proof.
  apply optimal_transfer; [apply mps_feasible|].
  intros y. rewrite mps_sense, !mps_objective. destruct (l_sense p); cbn [better]; split; lra.
Qed.

Lemma mps_max_to_min_equiv p :
  l_sense (mps_max_to_min p) = Min /\
  (forall x, feasible (mps_max_to_min p) x <-> feasible p x) /\
  (forall x, objective (mps_max_to_min p) x == match l_sense p with Min => objective p x | Max => - objective p x end) /\
  (forall x, optimal (mps_max_to_min p) x <-> optimal p x).
Proof.
  split; [apply mps_sense|]. split; [apply mps_feasible|]. split; [apply mps_objective|apply mps_optimal].
Qed.

Lemma drop_offset_feasible p x : feasible (drop_offset p) x <-> feasible p x.
Proof. reflexivity. Qed.

Lemma drop_offset_objective p x : objective (drop_offset p) x == objective p x - l_offset p.
Proof. unfold objective, drop_offset; cbn. lra. Qed.

Lemma drop_offset_optimal p x : optimal (drop_offset p) x <-> optimal p x.
Proof.
  apply optimal_transfer; [reflexivity|].
  intros y. rewrite !drop_offset_objective. cbn [drop_offset l_sense]. destruct (l_sense p); cbn [better]; split; lra.
Qed.

Lemma nth_zero_nth j a : nth_zero j a = true -> nth j a 0 == 0.
Proof.
  revert a. induction j as [|j IH]; intros [|c a]; cbn; intros H; try reflexivity.
  - now apply Qeq_bool_eq.
  - now apply IH.
Qed.

(* the masks produced by [used_from] have the length of the column list; we phrase the lemmas with that premise *)
Lemma dot_mask keep a x :
  length keep = length x ->
  (forall j, nth j keep true = false -> nth j a 0 == 0) ->
  dot (mask keep a) (mask keep x) == dot a x.
Proof.
  revert a x. induction keep as [|k keep IH]; intros [|c a] [|v x] HL H; try discriminate; try reflexivity.
  injection HL as HL. specialize (IH a x HL (fun j => H (S j))).
  destruct k; cbn [mask dot]; rewrite IH; [reflexivity|]. rewrite (H O eq_refl). lra.
Qed.

Lemma used_from_length p j cs : length (used_from p j cs) = length cs.
Proof. revert j. induction cs; intros j; cbn; auto. Qed.

Lemma col_unused_facts p j c :
  col_used p j c = false -> c_obj c == 0 /\ forall r, In r (l_rows p) -> nth j (r_coefs r) 0 == 0.
Proof.
  unfold col_used. intros H. apply orb_false_iff in H as [H1 H2]. split.
  - apply negb_false_iff in H1. now apply Qeq_bool_eq.
  - intros r Hr. apply nth_zero_nth. destruct (nth_zero j (r_coefs r)) eqn:E; [reflexivity|].
    rewrite <- H2. apply existsb_exists. exists r. now rewrite E.
Qed.

Lemma unused_zero p j : nth j (used_mask p) true = false ->
  nth j (map c_obj (l_cols p)) 0 == 0 /\ forall r, In r (l_rows p) -> nth j (r_coefs r) 0 == 0.
Proof.
  unfold used_mask. change j with (0 + j)%nat at 3. generalize O as j0. revert j.
  induction (l_cols p) as [|c cs IH]; intros [|j] j0 H; try discriminate.
  - rewrite Nat.add_0_r. apply col_unused_facts, H.
  - rewrite Nat.add_succ_r. apply (IH j (S j0) H).
Qed.

Lemma mask_Forall2 keep cs x :
  Forall2 col_ok cs x -> Forall2 col_ok (mask keep cs) (mask keep x).
Proof.
  intros H. revert keep. induction H as [|c v cs x Hc _ IH]; intros keep.
  - destruct keep; constructor.
  - destruct keep as [|k keep]; [constructor|]. cbn. destruct k; auto.
Qed.

Lemma map_mask {A B} (f : A -> B) keep l : map f (mask keep l) = mask keep (map f l).
Proof.
  revert l. induction keep as [|k keep IH]; intros [|a l]; cbn; auto.
  destruct k; cbn; now rewrite IH.
Qed.

Global Instance lo_ok_proper lo : Proper (Qeq ==> iff) (lo_ok lo).
Proof. intros a b E. destruct lo; cbn; [rewrite E|]; reflexivity. Qed.
Global Instance up_ok_proper up : Proper (Qeq ==> iff) (up_ok up).
Proof. intros a b E. destruct up; cbn; [rewrite E|]; reflexivity. Qed.

Lemma drop_unused_at p x : length x = length (l_cols p) ->
  (Forall (row_ok (mask (used_mask p) x)) (l_rows (drop_unused p)) <-> Forall (row_ok x) (l_rows p)) /\
  objective (drop_unused p) (mask (used_mask p) x) == objective p x.
Proof.
  intros HL. assert (HK : length (used_mask p) = length x) by (rewrite HL; apply used_from_length).
  unfold objective, drop_unused, drop_cols; cbn [l_offset l_cols l_rows]. split.
  - rewrite Forall_map, !Forall_forall. unfold row_ok; cbn [r_lhs r_coefs r_rhs].
    assert (HD : forall r, In r (l_rows p) ->
                 dot (mask (used_mask p) (r_coefs r)) (mask (used_mask p) x) == dot (r_coefs r) x).
    { intros r Hr. apply dot_mask; [exact HK|]. intros j Hj. apply (unused_zero p j Hj), Hr. }
    split; intros H r Hr; specialize (H r Hr); [rewrite <- HD | rewrite HD]; assumption.
  - rewrite map_mask, dot_mask; [reflexivity | exact HK|]. intros j Hj. apply (unused_zero p j Hj).
Qed.

(* projection: a feasible point of p, restricted to the used columns, is feasible for the reduced LP with the same
   objective value *)
Lemma drop_unused_project p x :
  feasible p x ->
  feasible (drop_unused p) (mask (used_mask p) x) /\
  objective (drop_unused p) (mask (used_mask p) x) == objective p x.
Proof.
  intros [Hc Hr]. destruct (drop_unused_at p x (eq_sym (Forall2_length _ _ _ Hc))) as [Hrows Hobj].
  split; [split|]; [apply mask_Forall2, Hc | apply Hrows, Hr | exact Hobj].
Qed.

Lemma pick_ok c : bounds_nonempty c -> col_ok c (pick c).
Proof.
  unfold bounds_nonempty, col_ok, pick, lo_ok, up_ok.
  destruct (c_lo c), (c_up c); intros H; split; auto; lra.
Qed.

Lemma unmask_spec keep cs x :
  length keep = length cs ->
  (forall j c, nth j keep true = false -> nth_error cs j = Some c -> bounds_nonempty c) ->
  Forall2 col_ok (mask keep cs) x -> Forall2 col_ok cs (unmask keep cs x) /\ mask keep (unmask keep cs x) = x.
Proof.
  revert cs x. induction keep as [|k keep IH]; intros [|c cs] x HL HB H; try discriminate.
  - inversion H. split; [constructor | reflexivity].
  - injection HL as HL. specialize (IH cs) with (1 := HL) (2 := fun j c' => HB (S j) c'). cbn in H |- *. destruct k.
    + inversion H as [|? v ? x' Hc Hx]; subst. destruct (IH x' Hx) as [A B]. cbn. split; [constructor; assumption | now rewrite B].
    + destruct (IH x H) as [A B]. split; [constructor; [apply pick_ok, (HB O c); reflexivity | exact A] | exact B].
Qed.

(* extension: a feasible point of the reduced LP extends (with any admissible value of the dropped columns) to a
   feasible point of p with the same objective value *)
Lemma drop_unused_extend p x' :
  (forall j c, nth j (used_mask p) true = false -> nth_error (l_cols p) j = Some c -> bounds_nonempty c) ->
  feasible (drop_unused p) x' ->
  let x := unmask (used_mask p) (l_cols p) x' in
  feasible p x /\ objective p x == objective (drop_unused p) x' /\ mask (used_mask p) x = x'.
Proof.
  intros HB [Hc Hr] x.
  destruct (unmask_spec (used_mask p) (l_cols p) x' (used_from_length p O (l_cols p)) HB Hc) as [HC HM]. fold x in HC, HM.
  destruct (drop_unused_at p x (eq_sym (Forall2_length _ _ _ HC))) as [Hrows Hobj]. rewrite HM in Hrows, Hobj.
  split; [split|split]; [exact HC | apply Hrows, Hr | symmetry; exact Hobj | exact HM].
Qed.

Lemma file_images_same_optimal p x :
  (optimal (lpf_image true p) x <-> optimal p x) /\ (optimal (mps_image true p) x <-> optimal p x).
Proof.
  unfold lpf_image, mps_image. split.
  - rewrite drop_offset_optimal. apply equiv_optimal, split_ranges_equiv.
  - rewrite drop_offset_optimal. apply mps_optimal.
Qed.
