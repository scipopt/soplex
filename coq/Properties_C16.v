(* C16 - Limits and interrupts stop the solve honestly and resumably.
   Property theorems only (each closed by a lemma of Limits_Proofs.v or Driver_Honest.v, or a one-line instance of one).  They quantify over ALL event lists the
   simplex engine (an oracle: pricer, ratio test, basis update are not modelled) may produce and over all limit settings.
   [run] is the stop logic of SPxSolverBase<R>::solve / terminate, [outer] the budget arithmetic and status mapping of
   SoPlexBase<R>::_solveRealLPAndRecordStatistics / _evaluateSolutionReal, [rat_round] one round of _optimizeRational. *)
From Coq Require Import ZArith QArith List Bool.
From SV Require Import Vec LP Cert Cert_Proofs LimitsModel Limits_Proofs.
From SV Require DriverModel Driver_Honest.
Import ListNotations.
Local Open Scope Z_scope.

(* No more simplex iterations than the limit allows: inner solve ... *)
Theorem C16_iter_limit_respected :
  forall lim evs, 0 <= max_iters lim -> 0 <= iters (run lim evs) <= max_iters lim.
Proof. exact iter_limit_respected. Qed.
Print Assumptions C16_iter_limit_respected.

(* ... and the whole optimize() call with any number of inner solves (re-solves after polishing, failed verification,
   singularity): the budget ITERLIMIT - iterations-so-far never becomes negative, so setTerminationIter's
   "negative means unlimited" is never reached, and numIterations() <= ITERLIMIT. *)
Theorem C16_iter_limit_respected_across_inner_solves :
  forall lim iterlimit solves, 0 <= iterlimit -> 0 <= oiters (outer lim iterlimit solves) <= iterlimit.
Proof. exact outer_iter_limit_respected. Qed.
Print Assumptions C16_iter_limit_respected_across_inner_solves.

(* ABORT_ITER is reported only with a limit set and exactly that many iterations performed. *)
Theorem C16_abort_iter_exact :
  forall lim evs, st (run lim evs) = ABORT_ITER -> 0 <= max_iters lim /\ iters (run lim evs) = max_iters lim.
Proof. exact abort_iter_exact. Qed.
Print Assumptions C16_abort_iter_exact.

(* Honesty: OPTIMAL / INFEASIBLE / UNBOUNDED is returned only if the engine produced exactly that terminal event, and the
   run ended at it (all earlier passes were executed, everything after it is untouched). *)
Theorem C16_abort_is_honest :
  forall lim evs s, is_verdict s = true -> st (run lim evs) = s ->
    exists pre e, evs = pre ++ e :: rest (run lim evs) /\ ev_kind e = verdict_kind s.
Proof. exact abort_is_honest. Qed.
Print Assumptions C16_abort_is_honest.

(* The same for the status optimize() reports after several inner solves: a verdict is the simplifier's or a terminal
   event of an inner solve; abort statuses are never mapped to verdicts ... *)
Theorem C16_reported_verdict_is_honest :
  forall lim iterlimit solves v, is_verdict v = true -> ost (outer lim iterlimit solves) = v ->
    exists s, In s solves /\ verdict_source v s.
Proof. exact outer_verdict_honest. Qed.
Print Assumptions C16_reported_verdict_is_honest.

(* ... and an inner solve stopped by the iteration limit or the time limit / interrupt ends optimize() with that status
   (no re-solve follows: may_resolve is false for ABORT_ITER and ABORT_TIME). *)
Theorem C16_abort_status_kept :
  forall lim iterlimit used first last s more,
    in_simp s = S_OKAY ->
    may_resolve (st (run (inner_limits lim (iter_budget iterlimit used) first (in_objlim s)) (in_events s))) = false ->
    ost (outer_from lim iterlimit used first last (s :: more)) =
    st (run (inner_limits lim (iter_budget iterlimit used) first (in_objlim s)) (in_events s)).
Proof. exact outer_abort_kept. Qed.
Print Assumptions C16_abort_status_kept.

(* Without limits only the engine ends a run. *)
Theorem C16_no_limits_no_abort :
  forall evs n, is_abort (st (run_from no_limits n evs)) = false.
Proof. exact no_limits_no_abort. Qed.
Print Assumptions C16_no_limits_no_abort.

(* Resumability of the stop logic: a run stopped by ANY limit (iteration limit, interrupt, time limit, objective limit)
   leaves exactly the passes it did not execute; executing those without limits gives the status of the uninterrupted run,
   the iteration counts add up, and the same passes remain. *)
Theorem C16_resume_equals_uninterrupted :
  forall lim evs, is_abort (st (run lim evs)) = true ->
    st (run no_limits (rest (run lim evs))) = st (run no_limits evs) /\
    iters (run lim evs) + iters (run no_limits (rest (run lim evs))) = iters (run no_limits evs) /\
    rest (run no_limits (rest (run lim evs))) = rest (run no_limits evs).
Proof. exact resume_equals_uninterrupted. Qed.
Print Assumptions C16_resume_equals_uninterrupted.

(* "wherever the stop occurred": splitting the passes at any point (list append). *)
Theorem C16_resume_at_any_point :
  forall pre post, st (run no_limits pre) = RUNNING ->
    st (run_from no_limits (iters (run no_limits pre)) post) = st (run no_limits (pre ++ post)) /\
    iters (run_from no_limits (iters (run no_limits pre)) post) = iters (run no_limits (pre ++ post)).
Proof. intros pre post H. unfold run in *. rewrite (run_from_app no_limits pre post 0 H). split; reflexivity. Qed.
Print Assumptions C16_resume_at_any_point.

(* The resumed solve of the real code re-initialises and may take other pivots than the uninterrupted one; that it still
   reaches "the same status and optimal value" rests on the verdict and the optimal value being functions of the LP: *)
Theorem C16_optimal_value_unique :
  forall (p : lp) x x', optimal p x -> optimal p x' -> (objective p x == objective p x')%Q.
Proof. exact optimal_value_unique. Qed.
Print Assumptions C16_optimal_value_unique.

Theorem C16_verdicts_exclusive :
  forall p : lp, (forall x, optimal p x -> ~ infeasible p) /\ (forall x, optimal p x -> ~ unbounded p) /\ (unbounded p -> ~ infeasible p).
Proof. exact verdicts_exclusive. Qed.
Print Assumptions C16_verdicts_exclusive.

(* Objective limit.  ABORT_VALUE comes only from a state the oracle marked dual feasible without shift and violations whose
   objective is beyond the limit; if those marked values are dual objective values of multipliers of the user's LP (the
   meaning of the mark - trusted, checked per run through the certified optimum), weak duality puts every feasible
   objective value, hence the optimum, beyond the limit in the direction of optimisation. *)
Theorem C16_objlimit_sound :
  forall (p : lp) lim evs l,
    st (run lim evs) = ABORT_VALUE -> maxi lim = maximize p -> obj_lim lim = Some l ->
    (forall e v, In e evs -> ev_dual e = Some v -> exists y b, dual_bound p y = Some b /\ (b == v)%Q) ->
    forall x, feasible p x -> no_worse p l (objective p x).
Proof. exact objlimit_sound. Qed.
Print Assumptions C16_objlimit_sound.

Theorem C16_objlimit_optimum_beyond :
  forall (p : lp) lim evs l xopt,
    st (run lim evs) = ABORT_VALUE -> maxi lim = maximize p -> obj_lim lim = Some l ->
    (forall e v, In e evs -> ev_dual e = Some v -> exists y b, dual_bound p y = Some b /\ (b == v)%Q) ->
    optimal p xopt -> no_worse p l (objective p xopt).
Proof. exact objlimit_optimum_beyond. Qed.
Print Assumptions C16_objlimit_optimum_beyond.

Theorem C16_no_objlimit_no_abort_value :
  forall lim evs, obj_lim lim = None -> st (run lim evs) <> ABORT_VALUE.
Proof. exact no_objlimit_no_abort_value. Qed.
Print Assumptions C16_no_objlimit_no_abort_value.

(* Interrupt: the first pass that prices a candidate while the flag is up stops with ABORT_TIME before the step is taken
   (the pass stays in [rest]); and ABORT_TIME never appears without a raised flag or an elapsed time limit. *)
Theorem C16_interrupt_gives_abort_time :
  forall lim pre e post,
    use_intr lim = true -> ev_intr e = true -> priced (ev_kind e) = true ->
    st (run lim pre) = RUNNING -> iter_limit_hit lim (iters (run lim pre)) = false ->
    run lim (pre ++ e :: post) = {| st := ABORT_TIME; iters := iters (run lim pre); rest := e :: post |}.
Proof. exact interrupt_gives_abort_time. Qed.
Print Assumptions C16_interrupt_gives_abort_time.

Theorem C16_abort_time_has_cause :
  forall lim evs n, st (run_from lim n evs) = ABORT_TIME ->
    (use_intr lim = true /\ exists e, In e evs /\ ev_intr e = true /\ priced (ev_kind e) = true) \/
    (use_time lim = true /\ exists e, In e evs /\ ev_timeup e = true).
Proof. exact abort_time_has_cause. Qed.
Print Assumptions C16_abort_time_has_cause.

(* Time limit already used up (TIMELIMIT 0): the budget is clamped to 0, every clock reading reaches it, and the call of
   terminate() in front of the loop stops with ABORT_TIME and 0 iterations. *)
Theorem C16_time_budget_exhausted :
  forall timelimit elapsed clock, (timelimit <= elapsed)%Q -> (0 <= clock)%Q ->
    time_limit_reached (Some (time_budget timelimit elapsed)) false clock = true.
Proof. exact time_budget_exhausted. Qed.
Print Assumptions C16_time_budget_exhausted.

Theorem C16_time_up_stops_at_start :
  forall lim e evs, ev_kind e = Start -> use_time lim = true -> ev_timeup e = true ->
    run lim (e :: evs) = {| st := ABORT_TIME; iters := 0; rest := evs |}.
Proof. exact time_up_stops_at_start. Qed.
Print Assumptions C16_time_up_stops_at_start.

(* Exact solve: a round of _optimizeRational reports a verdict only if the refinement procedures established it and none of
   them raised a stop or error flag; a raised flag of the first procedure always wins; REFLIMIT / STALLREFLIMIT / ITERLIMIT
   reached make _isSolveStopped true. *)
Theorem C16_rational_round_honest :
  forall o u f u2 t,
  (rat_round o u f u2 t = R_OPTIMAL ->
     o_pfeas o = true /\ o_dfeas o = true /\ o_error o = false /\ o_stime o = false /\ o_siter o = false) /\
  (rat_round o u f u2 t = R_INFEASIBLE ->
     f_infeasible f = true /\ f_error f = false /\ f_stime f = false /\ f_siter f = false /\
     o_error o = false /\ o_stime o = false /\ o_siter o = false) /\
  (rat_round o u f u2 t = R_UNBOUNDED ->
     u_hasray u = true /\ u_error u = false /\ u_stime u = false /\ u_siter u = false /\
     f_infeasible f = false /\ f_error f = false /\ f_stime f = false /\ f_siter f = false /\
     o_error o = false /\ o_stime o = false /\ o_siter o = false).
Proof. exact rat_round_honest. Qed.
Print Assumptions C16_rational_round_honest.

Theorem C16_rational_stop_flag_wins :
  forall o u f u2 t, o_error o = false -> (o_stime o = true \/ o_siter o = true) ->
    rat_round o u f u2 t = R_ABORT_TIME \/ rat_round o u f u2 t = R_ABORT_ITER.
Proof.
  intros o u f u2 t E H. destruct (rat_stop_flag_wins o u f u2 t E) as [A B].
  destruct (o_stime o); [left; now apply A | right; destruct H as [H|H]; [discriminate H | now apply B]].
Qed.
Print Assumptions C16_rational_stop_flag_wins.

Theorem C16_refinement_limits_stop :
  forall l s, (0 <= rl_ref l <= r_refs s \/ 0 <= rl_stallref l <= r_stallrefs s \/ 0 <= rl_iter l <= r_iters s) ->
    is_solve_stopped l s = true.
Proof. exact reflimit_stops. Qed.
Print Assumptions C16_refinement_limits_stop.

(* Non-vacuity: a concrete run (dual simplex: three pivots and a flip, a switch, then OPTIMAL) *)
Definition ev (k : ekind) (d : option Q) : event := {| ev_kind := k; ev_intr := false; ev_timeup := false; ev_dual := d |}.
Definition ex_events : list event :=
  [ev Start None; ev Pivot (Some (2#1)); ev Flip (Some (3#1)); ev Pivot (Some (5#1)); ev Switch None; ev Pivot None; ev Optimal None].
Definition lim_iter (k : Z) : limits :=
  {| max_iters := k; use_intr := false; use_time := false; obj_lim := None; maxi := false |}.

Example C16_ex_unlimited : st (run no_limits ex_events) = OPTIMAL /\ iters (run no_limits ex_events) = 3.
Proof. vm_compute. repeat split. Qed.
Example C16_ex_limit_2 : st (run (lim_iter 2) ex_events) = ABORT_ITER /\ iters (run (lim_iter 2) ex_events) = 2
  /\ length (rest (run (lim_iter 2) ex_events)) = 2%nat.
Proof. vm_compute. repeat split. Qed.
Example C16_ex_resume_2 : st (run no_limits (rest (run (lim_iter 2) ex_events))) = OPTIMAL
  /\ iters (run no_limits (rest (run (lim_iter 2) ex_events))) = 1.
Proof. vm_compute. repeat split. Qed.
(* the limit equal to the number of pivots of the unlimited run still ends OPTIMAL: optimality is seen by the pricer before
   the iteration check; an INFEASIBLE / UNBOUNDED verdict, detected inside the step, needs one more *)
Example C16_ex_limit_3 : st (run (lim_iter 3) ex_events) = OPTIMAL.
Proof. vm_compute. repeat split. Qed.
Example C16_ex_limit_inf : st (run (lim_iter 0) [ev Start None; ev Infeasible None]) = ABORT_ITER
  /\ st (run (lim_iter 1) [ev Start None; ev Infeasible None]) = INFEASIBLE.
Proof. vm_compute. repeat split. Qed.
(* objective limit 4 for a minimisation: the dual objective 5 after the third priced pass is beyond it *)
Definition lim_obj : limits := {| max_iters := -1; use_intr := false; use_time := false; obj_lim := Some (4#1); maxi := false |}.
Example C16_ex_abort_value : st (run lim_obj ex_events) = ABORT_VALUE /\ iters (run lim_obj ex_events) = 2.
Proof. vm_compute. repeat split. Qed.
(* the hypothesis of C16_objlimit_sound is satisfiable: the LP of Properties_C01 has multipliers with dual objective 5 *)
Definition ex_lp : lp :=
  {| maximize := false; offset := 3;
     cols := [ {| c_obj := 1; c_lo := Some 0%Q; c_up := Some (4#1) |}; {| c_obj := 2#1; c_lo := Some 0%Q; c_up := None |} ];
     rows := [ {| r_lhs := Some (2#1); r_coef := [1%Q; 1%Q]; r_rhs := None |} ] |}.
Example C16_ex_dual_value : exists y b, dual_bound ex_lp y = Some b /\ (b == 5#1)%Q.
Proof. exists [1%Q]. eexists. split; [vm_compute; reflexivity | reflexivity]. Qed.
Example C16_ex_objlimit_applies :
  forall x, feasible ex_lp x -> no_worse ex_lp (4#1) (objective ex_lp x).
Proof.
  apply (C16_objlimit_sound ex_lp lim_obj [ev Start None; ev Pivot (Some (5#1))] (4#1)).
  - vm_compute. reflexivity.
  - reflexivity.
  - reflexivity.
  - intros e v [<-|[<-|[]]]; cbn; intros H; [discriminate H|]. injection H as <-. exact C16_ex_dual_value.
Qed.
(* interrupt raised during the third pass *)
Definition evi (k : ekind) : event := {| ev_kind := k; ev_intr := true; ev_timeup := false; ev_dual := None |}.
Definition lim_intr : limits := {| max_iters := -1; use_intr := true; use_time := false; obj_lim := None; maxi := false |}.
Example C16_ex_interrupt :
  run lim_intr ([ev Start None; ev Pivot None; ev Flip None] ++ evi Pivot :: [ev Optimal None])
  = {| st := ABORT_TIME; iters := 1; rest := evi Pivot :: [ev Optimal None] |}.
Proof. vm_compute. reflexivity. Qed.
(* two inner solves under ITERLIMIT 3: the second one gets the budget 3 - 2 = 1 *)
Example C16_ex_outer :
  outer no_limits 3 [ {| in_simp := S_OKAY; in_objlim := true; in_events := [ev Start None; ev Pivot None; ev Pivot None; ev Optimal None] |};
                      {| in_simp := S_OKAY; in_objlim := true; in_events := [ev Start None; ev Pivot None; ev Pivot None; ev Optimal None] |} ]
  = {| ost := ABORT_ITER; oiters := 3 |}.
Proof. vm_compute. reflexivity. Qed.
Example C16_ex_outer_unlimited :
  outer no_limits (-1) [ {| in_simp := S_OKAY; in_objlim := true; in_events := [ev Start None; ev Pivot None; ev Pivot None; ev Optimal None] |};
                         {| in_simp := S_OKAY; in_objlim := true; in_events := [ev Start None; ev Pivot None; ev Pivot None; ev Optimal None] |} ]
  = {| ost := OPTIMAL; oiters := 4 |}.
Proof. vm_compute. reflexivity. Qed.

(* The solve driver (DriverModel.v: optimize / _preprocessAndSolveReal / _evaluateSolutionReal and the store / verify /
   re-solve paths, replayed against the guarded trace points on every floating-point solve of this check): the status it
   ends with is what the LAST pass shows - the simplifier's verdict or the status of the last inner solve.  A limit status
   of an earlier pass that was repeated is not reported, a limit status is not invented, and OPTIMAL is not claimed when
   the last inner solve stopped at a limit.  For every oracle (= every behaviour of simplifier, simplex and verification),
   every parameter setting, every start state and every fuel. *)
Theorem C16_driver_reports_last_pass : forall P orc oscaled fuel s0 s',
  DriverModel.optimize P orc oscaled fuel s0 = DriverModel.Done s' -> Driver_Honest.Honest P orc s'.
Proof. exact Driver_Honest.driver_reports_last_pass. Qed.
Print Assumptions C16_driver_reports_last_pass.

Theorem C16_limit_status_not_invented : forall P orc oscaled fuel s0 s',
  DriverModel.optimize P orc oscaled fuel s0 = DriverModel.Done s' -> Driver_Honest.is_limit (DriverModel.status s') = true ->
  exists f, DriverModel.frame s' = S f /\
    (DriverModel.o_status (orc f) = DriverModel.status s' \/ (DriverModel.o_status (orc f) = DriverModel.ABORT_CYCLING /\ DriverModel.o_cycstatus (orc f) = DriverModel.status s')).
Proof. exact Driver_Honest.limit_status_not_invented. Qed.
Print Assumptions C16_limit_status_not_invented.

Theorem C16_optimal_not_claimed_after_limit : forall P orc oscaled fuel s0 s',
  DriverModel.optimize P orc oscaled fuel s0 = DriverModel.Done s' -> DriverModel.status s' = DriverModel.OPTIMAL ->
  exists f, DriverModel.frame s' = S f /\
    (DriverModel.o_status (orc f) = DriverModel.OPTIMAL \/ (DriverModel.o_status (orc f) = DriverModel.ABORT_CYCLING /\ DriverModel.o_cycstatus (orc f) = DriverModel.OPTIMAL) \/
     (DriverModel.p_simp P = true /\ DriverModel.o_simp (orc f) = DriverModel.S_VANISHED)).
Proof. exact Driver_Honest.optimal_not_claimed_after_limit. Qed.
Print Assumptions C16_optimal_not_claimed_after_limit.

(* a run the theorems speak about: the first pass is OPTIMAL but fails the verification, the LP is unscaled and solved
   again, the second pass stops at the iteration limit: the driver ends with ABORT_ITER after two passes *)
Example C16_ex_driver_limit_in_second_pass :
  let o (t : DriverModel.st) (vfail : bool) :=
    {| DriverModel.o_simp := DriverModel.S_OKAY; DriverModel.o_scaled := true; DriverModel.o_status := t; DriverModel.o_throw := false; DriverModel.o_vbits := (false, vfail, false, false);
       DriverModel.o_dualfeas := true; DriverModel.o_cycstatus := DriverModel.ABORT_CYCLING; DriverModel.o_resbasis := true |} in
  let P := {| DriverModel.p_simp := true; DriverModel.p_scaler := true; DriverModel.p_persist := true; DriverModel.p_ensureray := false; DriverModel.p_objlim := false |} in
  let s0 := {| DriverModel.simp_on := false; DriverModel.scaler_on := true; DriverModel.loaded := true; DriverModel.scaled := false; DriverModel.sol_scaled := false; DriverModel.intl := false;
               DriverModel.has_basis := false; DriverModel.status := DriverModel.OTHER 0; DriverModel.has_sol := false; DriverModel.has_ray := false; DriverModel.has_farkas := false; DriverModel.apply_pol := false;
               DriverModel.objlim_en := true; DriverModel.opt_calls := 0; DriverModel.unsc_calls := 0; DriverModel.sol_space := DriverModel.user_space; DriverModel.sol_ok := false; DriverModel.frame := O; DriverModel.trace := [] |} in
  match DriverModel.optimize P (fun k => if Nat.eqb k 0 then o DriverModel.OPTIMAL true else o DriverModel.ABORT_ITER false) true DriverModel.FUEL s0 with
  | DriverModel.Done r => DriverModel.status r = DriverModel.ABORT_ITER /\ DriverModel.frame r = 2%nat
  | _ => False
  end.
Proof. vm_compute. repeat split. Qed.
