(* C04 - the in-place compaction of removedRows / removedCols yields the survivors in order, and the count of basic
   variables stays equal to the number of rows whenever the basis is kept; addedRows / addedCols keep a valid
   descriptor valid. *)
From Coq Require Import List Bool Arith ZArith QArith Lia.
From SV Require Import BasisModel BasisModel_Proofs BasisChangeModel.
Import ListNotations.
Local Open Scope nat_scope.

Lemma set_nth_app_r {A} (pre : list A) x rest v : set_nth (pre ++ x :: rest) (length pre) v = pre ++ v :: rest.
Proof. induction pre as [|a pre IH]; simpl; [reflexivity|]. now rewrite IH. Qed.

Lemma keep_length_le {A} (arr : list A) mask : length (keep arr mask) <= length arr.
Proof.
  revert mask. induction arr as [|a arr IH]; intros [|[|] mask]; simpl; try lia.
  - specialize (IH mask). lia.
  - specialize (IH mask). lia.
Qed.

Lemma keep_length {A} (arr : list A) mask : length arr = length mask -> length (keep arr mask) = survivors mask.
Proof.
  revert mask. induction arr as [|a arr IH]; intros [|b mask] H; simpl in *; try lia; [reflexivity|].
  unfold survivors in *. destruct b; simpl; rewrite IH by lia; reflexivity.
Qed.

(* the loop invariant: the survivors found so far sit in front ([pre], the write position q is its length), then as many
   stale entries as rows were removed ([mid]), then the unprocessed part of the old array, read at position i *)
Lemma move_loop_inv {A} (d : A) : forall (tail : list A) (mask : list bool) (pre mid : list A) q i,
  length tail = length mask -> q = length pre -> i = q + length mid ->
  exists junk, move_loop d (pre ++ mid ++ tail) (perm_from mask q) i = (pre ++ keep tail mask) ++ junk.
Proof.
  induction tail as [|x tail IH]; intros [|b mask] pre mid q i Hl -> ->; try discriminate Hl.
  - exists mid. simpl. now rewrite !app_nil_r.
  - injection Hl as Hl. destruct b; cbn [perm_from move_loop keep].
    + (* removed: nothing moves; x becomes stale *)
      destruct (IH mask pre (mid ++ [x]) (length pre) (S (length pre + length mid)) Hl eq_refl) as [junk Hj].
      { rewrite app_length. simpl. lia. }
      exists junk. rewrite <- Hj, <- !app_assoc. reflexivity.
    + (* survivor: written to position |pre| (no move when nothing was removed so far, perm[i] = i); the stale part
         loses its first entry and gains x *)
      assert (Nx : nth (length pre + length mid) (pre ++ mid ++ x :: tail) d = x).
      { rewrite app_assoc, <- app_length. apply nth_middle. }
      rewrite Nx.
      assert (Sx : (if Nat.eqb (length pre) (length pre + length mid) then pre ++ mid ++ x :: tail
                    else set_nth (pre ++ mid ++ x :: tail) (length pre) x)
                   = (pre ++ [x]) ++ tl (mid ++ [x]) ++ tail).
      { destruct mid as [|y mid]; cbn [length app tl].
        - rewrite Nat.add_0_r, Nat.eqb_refl, <- app_assoc. reflexivity.
        - replace (Nat.eqb _ _) with false by (symmetry; apply Nat.eqb_neq; lia).
          rewrite set_nth_app_r, <- !app_assoc. reflexivity. }
      rewrite Sx.
      destruct (IH mask (pre ++ [x]) (tl (mid ++ [x])) (S (length pre)) (S (length pre + length mid)) Hl) as [junk Hj].
      { rewrite app_length. simpl. lia. }
      { destruct mid; simpl; rewrite ?app_length; simpl; lia. }
      exists junk. rewrite Hj, <- !app_assoc. reflexivity.
Qed.

Theorem compact_is_keep {A} (d : A) arr mask : length arr = length mask -> compact d arr mask = keep arr mask.
Proof.
  intros Hl. unfold compact.
  destruct (move_loop_inv d arr mask [] [] 0 0 Hl eq_refl eq_refl) as [junk Hj]. cbn [app] in Hj. rewrite Hj.
  rewrite <- (keep_length arr mask Hl). rewrite firstn_app, Nat.sub_diag, firstn_all. cbn [firstn]. now rewrite app_nil_r.
Qed.

Lemma filter_keep (g : DStatus -> bool) ds : forall mask, length ds = length mask -> removed_some g ds mask = false ->
  length (filter g (keep ds mask)) = length (filter g ds).
Proof.
  induction ds as [|s ds IH]; intros [|b mask] Hl Hr; try discriminate Hl; [reflexivity|].
  injection Hl as Hl. destruct b; cbn [removed_some keep filter] in *.
  - apply orb_false_iff in Hr as [Hs Hr]. rewrite Hs. auto.
  - destruct (g s); cbn [length]; auto.
Qed.

(* rows: if the basis is kept, the new descriptor holds the survivors in order; every removed row was basic, so the
   count of basic entries drops by the number of removed rows *)
Theorem removed_rows_count d mask d' :
  length (d_rows d) = length mask -> removed_rows d mask = Some d' ->
  d_rows d' = keep (d_rows d) mask /\ d_cols d' = d_cols d /\ length (d_rows d') = survivors mask /\
  count_dual (d_rows d') + count_dual (d_cols d') + length mask
  = count_dual (d_rows d) + count_dual (d_cols d) + survivors mask.
Proof.
  intros Hl. unfold removed_rows. destruct (removed_some _ (d_rows d) mask) eqn:E; [discriminate|].
  intros H. inversion H. subst d'. cbn [d_rows d_cols]. rewrite compact_is_keep by exact Hl.
  pose proof (filter_keep _ _ _ Hl E) as K. fold (count_primal (keep (d_rows d) mask)) (count_primal (d_rows d)) in K.
  pose proof (keep_length (d_rows d) mask Hl) as L.
  pose proof (count_dual_primal (d_rows d)). pose proof (count_dual_primal (keep (d_rows d) mask)).
  repeat split; try assumption; lia.
Qed.

(* no removed column was basic: the count stays *)
Theorem removed_cols_count d mask d' :
  length (d_cols d) = length mask -> removed_cols d mask = Some d' ->
  d_cols d' = keep (d_cols d) mask /\ d_rows d' = d_rows d /\ length (d_cols d') = survivors mask /\
  count_dual (d_rows d') + count_dual (d_cols d') = count_dual (d_rows d) + count_dual (d_cols d).
Proof.
  intros Hl. unfold removed_cols. destruct (removed_some is_dual (d_cols d) mask) eqn:E; [discriminate|].
  intros H. inversion H. subst d'. cbn [d_rows d_cols]. rewrite compact_is_keep by exact Hl.
  unfold count_dual at 2. rewrite (filter_keep _ _ _ Hl E), (keep_length (d_cols d) mask Hl).
  repeat split; reflexivity.
Qed.

(* the loop bound matters: cut short after [n] entries (what happens when the loop runs to the ALREADY SHRUNK row number),
   a survivor of the tail is not moved *)
Definition compact_short {A} (d : A) (arr : list A) (mask : list bool) : list A :=
  firstn (survivors mask) (move_loop d arr (firstn (survivors mask) (perm_from mask 0)) 0).

Lemma short_loop_refuted :
  compact_short D_UNDEFINED [D_ON_LOWER; D_ON_LOWER; P_ON_UPPER] [true; false; false] <> keep [D_ON_LOWER; D_ON_LOWER; P_ON_UPPER] [true; false; false].
Proof. vm_compute. discriminate. Qed.

Lemma count_dual_app a b : count_dual (a ++ b) = count_dual a + count_dual b.
Proof. unfold count_dual. rewrite filter_app, app_length. reflexivity. Qed.

Lemma entries_valid_app vs1 vs2 ds1 ds2 : length vs1 = length ds1 ->
  entries_valid (vs1 ++ vs2) (ds1 ++ ds2) = entries_valid vs1 ds1 && entries_valid vs2 ds2.
Proof.
  intros H. unfold entries_valid.
  assert (E : combine (vs1 ++ vs2) (ds1 ++ ds2) = combine vs1 ds1 ++ combine vs2 ds2).
  { revert ds1 H. induction vs1 as [|v vs1 IH]; intros [|s ds1] H; simpl in *; try discriminate; [reflexivity|]. rewrite IH by lia. reflexivity. }
  rewrite E, forallb_app. reflexivity.
Qed.

(* rows are appended to the LP: the old descriptor extended by the new rows' dual statuses is valid for the new LP *)
Theorem added_rows_valid lp newrows d :
  isDescValid lp d = true ->
  isDescValid (mkBlp (b_rows lp ++ newrows) (b_cols lp)) (added_rows (mkBlp (b_rows lp ++ newrows) (b_cols lp)) d) = true.
Proof.
  intros H. apply isDescValid_iff in H as (Lr & Lc & Vr & Vc & Cn). apply isDescValid_iff.
  unfold added_rows, nRows, nCols in *. cbn [b_rows b_cols d_rows d_cols].
  rewrite Lr, skipn_app, skipn_all, Nat.sub_diag. cbn [skipn app].
  rewrite !app_length, map_length, entries_valid_app, Vr, entries_valid_map_dual, count_primal_app, count_primal_map_dual
    by (symmetry; exact Lr).
  repeat split; try assumption; lia.
Qed.

Theorem added_cols_valid lp newcols d :
  isDescValid lp d = true ->
  isDescValid (mkBlp (b_rows lp) (b_cols lp ++ newcols)) (added_cols (mkBlp (b_rows lp) (b_cols lp ++ newcols)) d) = true.
Proof.
  intros H. apply isDescValid_iff in H as (Lr & Lc & Vr & Vc & Cn). apply isDescValid_iff.
  unfold added_cols, nRows, nCols in *. cbn [b_rows b_cols d_rows d_cols].
  rewrite Lc, skipn_app, skipn_all, Nat.sub_diag. cbn [skipn app].
  rewrite !app_length, map_length, entries_valid_app, Vc, entries_valid_map_primal, count_primal_app, count_primal_map_primal
    by (symmetry; exact Lc).
  repeat split; try assumption; lia.
Qed.
