(* C20 - lemmas about the C interface model (CIfaceModel.v). *)
From Coq Require Import ZArith QArith Qreduction List Bool String Lia Sorted.
From SV Require Import CIfaceModel.
Import ListNotations.
Local Open Scope nat_scope.

Section DenseProofs.
  Variable A : Type.
  Variable isz : A -> bool.
  Let keep := fun p : nat * A => negb (isz (snd p)).

  Lemma d2s_loop_spec : forall fuel arr i acc,
      d2s_loop isz arr i fuel acc = acc ++ filter keep (combine (seq i fuel) arr).
  Proof.
    induction fuel as [|f IH]; intros arr i acc.
    - cbn. now rewrite app_nil_r.
    - destruct arr as [|x tl].
      + cbn. now rewrite app_nil_r.
      + cbn [d2s_loop seq combine filter]. rewrite IH. unfold keep at 2. cbn [snd].
        destruct (isz x); cbn [negb].
        * reflexivity.
        * now rewrite <- app_assoc.
  Qed.

  Lemma dense_to_sparse_gen_eq : forall arr size, dense_to_sparse_gen isz arr size = sparse_of_dense isz arr size.
  Proof. intros. unfold dense_to_sparse_gen, sparse_of_dense. now rewrite d2s_loop_spec. Qed.

  Lemma in_combine_seq : forall n a (l : list A) k v,
      In (a + k, v) (combine (seq a n) l) <-> (k < n /\ nth_error l k = Some v).
  Proof.
    induction n as [|n IH]; intros a l k v; [cbn; split; [tauto | lia]|].
    destruct l as [|x tl]; [cbn; split; [tauto | intros [_ H]; destruct k; discriminate]|].
    cbn [seq combine In]. destruct k as [|k]; cbn [nth_error].
    - rewrite Nat.add_0_r. split.
      + intros [H | H]; [injection H as <-; split; [lia | reflexivity] | apply in_combine_l, in_seq in H; lia].
      + intros [_ H]. left. now injection H as <-.
    - rewrite Nat.add_succ_r, <- Nat.add_succ_l, IH. split.
      + intros [H | H]; [injection H; lia | split; [lia | tauto]].
      + intros [H1 H2]. right. split; [lia | exact H2].
  Qed.

  Lemma in_sparse_of_dense : forall arr size i v,
      In (i, v) (sparse_of_dense isz arr size) <-> (i < size /\ nth_error arr i = Some v /\ isz v = false).
  Proof.
    intros. unfold sparse_of_dense. rewrite filter_In, (in_combine_seq size 0 arr i v). cbn [snd]. rewrite negb_true_iff. tauto.
  Qed.

  Lemma sorted_filter_combine_seq : forall n a (l : list A) (f : nat * A -> bool),
      StronglySorted lt (map fst (filter f (combine (seq a n) l))).
  Proof.
    induction n as [|n IH]; intros a l f.
    - cbn. constructor.
    - destruct l as [|x tl]; [cbn; constructor|].
      cbn [seq combine filter]. destruct (f (a, x)); [|apply IH].
      cbn [map fst]. constructor; [apply IH|].
      apply Forall_forall. intros j Hj. apply in_map_iff in Hj. destruct Hj as [[j' v] [<- Hj]].
      apply filter_In, proj1, in_combine_l, in_seq in Hj. cbn [fst]. lia.
  Qed.

  Lemma sparse_of_dense_sorted : forall arr size, StronglySorted lt (map fst (sparse_of_dense isz arr size)).
  Proof. intros. apply sorted_filter_combine_seq. Qed.

  Lemma sv_get_sparse_of_dense : forall d arr size i,
      sv_get d (sparse_of_dense isz arr size) i =
      match nth_error arr i with Some x => if (i <? size) && negb (isz x) then x else d | None => d end.
  Proof.
    intros. unfold sv_get. destruct (find _ _) as [[j v]|] eqn:F.
    - (* an entry found under index i is (i, arr[i]) *)
      apply find_some in F as [F E]. apply Nat.eqb_eq in E. cbn [fst] in E. subst j.
      apply in_sparse_of_dense in F as (Hs & -> & ->). now rewrite (proj2 (Nat.ltb_lt _ _) Hs).
    - (* no entry has index i, so (i, arr[i]) was not kept *)
      destruct (nth_error arr i) as [x|] eqn:N; [|reflexivity].
      destruct (Nat.ltb_spec i size) as [Hs|]; [|reflexivity]. destruct (isz x) eqn:Z; [reflexivity|].
      pose proof (find_none _ _ F (i, x) (proj2 (in_sparse_of_dense _ _ _ _) (conj Hs (conj N Z)))) as C.
      cbn [fst] in C. now rewrite Nat.eqb_refl in C.
  Qed.
End DenseProofs.

Lemma Qis0_true : forall q, Qis0 q = true <-> q == 0.
Proof. intros [n d]. unfold Qis0, Qeq. cbn. rewrite Z.eqb_eq. lia. Qed.

Lemma Qis0_false : forall q, Qis0 q = false <-> ~ q == 0.
Proof. intros q. now rewrite <- Qis0_true, not_true_iff_false. Qed.

Lemma dense_to_sparse_eq : forall arr size, dense_to_sparse arr size = sparse_of_dense Qis0 arr size.
Proof. intros. apply dense_to_sparse_gen_eq. Qed.

Lemma dense_to_sparse_entries : forall arr size i v,
    In (i, v) (dense_to_sparse arr size) <-> (i < size /\ nth_error arr i = Some v /\ ~ v == 0).
Proof. intros. rewrite dense_to_sparse_eq, in_sparse_of_dense, Qis0_false. tauto. Qed.

Lemma dense_to_sparse_expand : forall arr size i,
    i < size -> sv_get 0%Q (dense_to_sparse arr size) i == nth i arr 0%Q.
Proof.
  intros arr size i Hs. rewrite dense_to_sparse_eq, sv_get_sparse_of_dense, (proj2 (Nat.ltb_lt _ _) Hs).
  destruct (nth_error arr i) as [x|] eqn:Hn; [|now rewrite (nth_overflow _ _ (proj1 (nth_error_None _ _) Hn))].
  rewrite (nth_error_nth _ _ _ Hn). destruct (Qis0 x) eqn:Hz; [symmetry; now apply Qis0_true | reflexivity].
Qed.

Lemma dense_to_sparse_beyond : forall arr size i,
    (size <= i \/ List.length arr <= i) -> sv_get 0%Q (dense_to_sparse arr size) i = 0%Q.
Proof.
  intros arr size i [H|H]; rewrite dense_to_sparse_eq, sv_get_sparse_of_dense.
  - apply Nat.ltb_ge in H. rewrite H. now destruct (nth_error arr i).
  - apply nth_error_None in H. now rewrite H.
Qed.

Lemma dense_to_sparse_nonzero : forall arr size, Forall (fun p => ~ snd p == 0) (dense_to_sparse arr size).
Proof.
  intros. apply Forall_forall. intros [i v] H. apply dense_to_sparse_entries in H. cbn. tauto.
Qed.

Lemma dense_to_sparse_sorted : forall arr size, StronglySorted lt (map fst (dense_to_sparse arr size)).
Proof. intros. rewrite dense_to_sparse_eq. apply sparse_of_dense_sorted. Qed.

(* the fraction [pair_to_Q] hands to Qred: the sign moved to the numerator *)
Definition raw_pair (num den : Z) : Q :=
  if Z.ltb den 0 then Qmake (- num) (Z.to_pos (- den)) else Qmake num (Z.to_pos den).

Lemma raw_pair_div : forall num den, den <> 0%Z -> raw_pair num den == inject_Z num / inject_Z den.
Proof.
  intros num den Hd. unfold raw_pair. destruct den as [|p|p]; [congruence| |].
  all: cbn; unfold Qdiv, Qinv, Qmult, Qeq, inject_Z; cbn; lia.
Qed.

Lemma pair_to_Q_nz : forall num den, den <> 0%Z -> pair_to_Q num den = Some (Qred (raw_pair num den)).
Proof. intros num den H. unfold pair_to_Q. now destruct (Z.eqb_spec den 0). Qed.

Lemma pair_to_Q_eq_rat_of_pair : forall num den, pair_to_Q num den = rat_of_pair num den.
Proof.
  intros. unfold pair_to_Q, rat_of_pair. destruct (Z.eqb_spec den 0); [reflexivity|].
  f_equal. apply Qred_complete. now apply raw_pair_div.
Qed.

Lemma Qred_num_sign : forall q, Z.sgn (Qnum (Qred q)) = Z.sgn (Qnum q).
Proof.
  intros q. pose proof (Qred_correct q) as H. unfold Qeq in H.
  destruct (Qred q) as [n d], q as [n' d']. cbn in *. nia.
Qed.

Lemma Qred_int : forall n, Qred (n # 1) = n # 1.
Proof.
  intros n. unfold Qred.
  pose proof (Z.ggcd_gcd n 1) as Hg. pose proof (Z.ggcd_correct_divisors n 1) as Hd.
  destruct (Z.ggcd n 1) as [g [aa bb]]. cbn in *. rewrite Z.gcd_1_r in Hg. subst g. destruct Hd as [H1 H2].
  rewrite Z.mul_1_l in *. subst. reflexivity.
Qed.

Lemma pair_to_Q_spec_lemma : forall num den, den <> 0%Z ->
    exists q, pair_to_Q num den = Some q
              /\ q == inject_Z num / inject_Z den
              /\ Qred q = q
              /\ Z.sgn (Qnum q) = (Z.sgn num * Z.sgn den)%Z
              /\ (den = 1%Z -> q = inject_Z num).
Proof.
  intros num den Hd. exists (Qred (raw_pair num den)). split; [now apply pair_to_Q_nz|]. split; [|split; [|split]].
  - rewrite Qred_correct. now apply raw_pair_div.
  - apply Qred_complete. apply Qred_correct.
  - rewrite Qred_num_sign. unfold raw_pair. destruct den as [|p|p]; [congruence| |]; cbn; lia.
  - intros ->. unfold raw_pair. cbn. unfold inject_Z. apply Qred_int.
Qed.

Lemma to_long_id : forall z, (LONG_MIN <= z <= LONG_MAX)%Z -> to_long z = z.
Proof.
  intros z [H1 H2]. unfold to_long. destruct (Z.ltb_spec LONG_MAX z); [lia|]. destruct (Z.ltb_spec z LONG_MIN); [lia|reflexivity].
Qed.

(* the rational getters hand back the exact value when numerator and denominator fit in a long *)
Lemma Q_to_pair_roundtrip : forall q, Qred q = q ->
    (LONG_MIN <= Qnum q <= LONG_MAX)%Z -> (Zpos (Qden q) <= LONG_MAX)%Z ->
    pair_to_Q (fst (Q_to_pair q)) (snd (Q_to_pair q)) = Some q.
Proof.
  intros q Hr Hn Hd. unfold Q_to_pair. cbn [fst snd]. rewrite (to_long_id (Qnum q)) by exact Hn.
  rewrite (to_long_id (Zpos (Qden q))) by (unfold LONG_MIN; lia).
  destruct q as [n d]. unfold pair_to_Q. cbn [Qnum Qden Z.eqb Z.ltb Z.compare Z.to_pos]. now rewrite Hr.
Qed.

(* the two functions [sparse_of_dense_rat] maps and filters with *)
Definition rat_entry (p : nat * (Z * Z)) : option (nat * Q) :=
  match rat_of_pair (fst (snd p)) (snd (snd p)) with Some q => Some (fst p, q) | None => None end.
Definition rat_keep (p : nat * (Z * Z)) : bool := negb (Zis0 (fst (snd p))).

Lemma d2s_rat_loop_spec : forall fuel nums dens i acc,
    d2s_rat_loop nums dens i fuel acc =
    match opt_all (map rat_entry (filter rat_keep (combine (seq i fuel) (combine nums dens)))) with
    | Some l => Some (acc ++ l) | None => None end.
Proof.
  induction fuel as [|f IH]; intros nums dens i acc.
  - cbn. now rewrite app_nil_r.
  - destruct nums as [|n nt]; [cbn; now rewrite app_nil_r|].
    destruct dens as [|d dt]; [cbn; now rewrite app_nil_r|].
    cbn [d2s_rat_loop seq combine filter]. unfold rat_keep at 1. cbn [fst snd].
    destruct (Zis0 n); cbn [negb].
    + apply IH.
    + cbn [map opt_all]. unfold rat_entry at 1. cbn [fst snd]. rewrite pair_to_Q_eq_rat_of_pair.
      destruct (rat_of_pair n d) as [q|]; [|reflexivity].
      rewrite IH. destruct (opt_all _) as [l|]; [|reflexivity]. now rewrite <- app_assoc.
Qed.

Lemma dense_to_sparse_rat_eq : forall nums dens size,
    dense_to_sparse_rat nums dens size = sparse_of_dense_rat nums dens size.
Proof.
  intros. unfold dense_to_sparse_rat, sparse_of_dense_rat. rewrite d2s_rat_loop_spec. unfold rat_entry, rat_keep.
  now destruct (opt_all _).
Qed.

Lemma dense_rat_eq : forall nums dens dim, dense_rat nums dens dim = dense_rat_spec nums dens dim.
Proof.
  intros. unfold dense_rat, dense_rat_spec. f_equal. apply map_ext. intros. apply pair_to_Q_eq_rat_of_pair.
Qed.

Lemma d2s_rat_loop_some : forall fuel nums dens i acc,
    forallb (fun p => Zis0 (fst p) || negb (Zis0 (snd p))) (firstn fuel (combine nums dens)) = true ->
    exists v, d2s_rat_loop nums dens i fuel acc = Some v.
Proof.
  induction fuel as [|f IH]; intros nums dens i acc H; [cbn; eauto|].
  destruct nums as [|n nt]; [cbn; eauto|]. destruct dens as [|d dt]; [cbn; eauto|].
  cbn [combine firstn forallb fst snd] in H. apply andb_true_iff in H. destruct H as [H1 H2].
  cbn [d2s_rat_loop]. destruct (Zis0 n) eqn:Hn.
  - now apply IH.
  - rewrite pair_to_Q_nz by (apply Z.eqb_neq, negb_true_iff, H1). now apply IH.
Qed.

Lemma opt_all_some : forall (A : Type) (l : list (option A)), (forall x, In x l -> x <> None) -> exists r, opt_all l = Some r.
Proof.
  induction l as [|[x|] tl IH]; intros H.
  - cbn. eauto.
  - cbn. destruct IH as [r Hr]; [intros y Hy; apply H; now right|]. rewrite Hr. eauto.
  - exfalso. apply (H None); [now left | reflexivity].
Qed.

Lemma dense_rat_some : forall nums dens dim, dens_ok_dense dens dim = true -> exists v, dense_rat nums dens dim = Some v.
Proof.
  intros nums dens dim H. unfold dense_rat. apply opt_all_some. intros x Hx. apply in_map_iff in Hx.
  destruct Hx as [[n d] [Hx1 Hx2]]. cbn in Hx1. subst x.
  rewrite combine_firstn in Hx2. apply in_combine_r in Hx2.
  unfold dens_ok_dense in H. rewrite forallb_forall in H. apply H in Hx2.
  rewrite pair_to_Q_nz by (apply Z.eqb_neq, negb_true_iff, Hx2). discriminate.
Qed.

Section Refinement.
  Variable RC : rational_codes.

  Lemma wrapper_calls_eq_intended : forall c, wrapper_calls RC c = intended_calls RC c.
  Proof.
    intros c. unfold wrapper_calls, intended_calls.
    destruct c; cbn [calls code_convs spec_convs cv_sp cv_sprat cv_drat cv_pair];
      rewrite ?dense_to_sparse_eq, ?dense_to_sparse_rat_eq, ?dense_rat_eq, ?pair_to_Q_eq_rat_of_pair; reflexivity.
  Qed.

  Variable St : Type.
  Variable xstep : St -> cpp_op -> St * cpp_out.

  Lemma c_run_refines : forall cs s,
      c_run RC St xstep s cs =
      match mirror_run RC St xstep s cs with
      | Some (s', rss) => Some (s', results cs rss)
      | None => None
      end.
  Proof.
    induction cs as [|c tl IH]; intros s; [reflexivity|].
    cbn [c_run mirror_run]. unfold c_step. rewrite wrapper_calls_eq_intended.
    destruct (intended_calls RC c) as [ops|]; [|reflexivity].
    destruct (x_run St xstep s ops) as [s1 rs]. rewrite IH.
    destruct (mirror_run RC St xstep s1 tl) as [[s2 rss]|]; reflexivity.
  Qed.

  Lemma valid_call_defined : forall c, valid_call c = true -> exists ops, wrapper_calls RC c = Some ops.
  Proof.
    intros c H. unfold wrapper_calls.
    destruct c; cbn [calls code_convs cv_sp cv_sprat cv_drat cv_pair]; try (eexists; reflexivity);
      cbn [valid_call] in H; repeat (apply andb_true_iff in H; destruct H as [H ?]);
      rewrite ?pair_to_Q_nz by (apply Z.eqb_neq, negb_true_iff; assumption);
      try (destruct (dense_rat_some nums dens dim) as [v ->]; [assumption|]);
      try (unfold dense_to_sparse_rat; destruct (d2s_rat_loop_some size nums dens 0 []) as [v ->]; [assumption|]);
      cbn; eauto.
  Qed.

  Lemma valid_run_defined : forall cs s, forallb valid_call cs = true -> exists r, c_run RC St xstep s cs = Some r.
  Proof.
    induction cs as [|c tl IH]; intros s H; [cbn; eauto|].
    cbn [forallb] in H. apply andb_true_iff in H. destruct H as [H1 H2].
    cbn [c_run]. unfold c_step. destruct (valid_call_defined c H1) as [ops ->].
    destruct (x_run St xstep s ops) as [s1 rs]. destruct (IH s1 H2) as [[s2 os] ->]. eauto.
  Qed.
End Refinement.

(* getters through a temporary: when the C++ vector has the caller's dimension the caller receives it unchanged *)
Lemma vec_getter_faithful : forall dim ok v, List.length v <= dim ->
    wrapper_result (CGetLowerReal dim) [RVec ok v] = KArr v
    /\ wrapper_result (CGetUpperReal dim) [RVec ok v] = KArr v
    /\ wrapper_result (CGetObjReal dim) [RVec ok v] = KArr v
    /\ wrapper_result (CGetPrimalRationalString dim) [RVec ok v] = KStr v.
Proof. intros dim ok v H. cbn. now rewrite firstn_all2. Qed.

Lemma upto_within : forall m n, forallb (fun i => i <? n) (upto m) = (m <=? n).
Proof.
  intros m n. unfold upto. destruct (Nat.leb_spec m n) as [H|H].
  - apply forallb_forall. intros i Hi. apply in_seq in Hi. apply Nat.ltb_lt. lia.
  - apply not_true_is_false. intros Hf. rewrite forallb_forall in Hf.
    assert (In n (seq 0 m)) as Hi by (apply in_seq; lia). apply Hf in Hi. apply Nat.ltb_lt in Hi. lia.
Qed.

Lemma nz_positions_within : forall nums size, forallb (fun i => i <? size) (nz_positions nums size) = true.
Proof.
  intros. apply forallb_forall. intros i Hi. unfold nz_positions in Hi. apply in_map_iff in Hi.
  destruct Hi as [[j v] [H1 H2]]. cbn in H1. subst j. rewrite dense_to_sparse_gen_eq in H2.
  apply in_sparse_of_dense in H2. apply Nat.ltb_lt. tauto.
Qed.

Lemma access_upto c d b w n : access_ok c d {| a_buf := b; a_wr := w; a_idx := upto n |} = (n <=? buf_len c d b).
Proof. apply upto_within. Qed.

Lemma footprint_within : forall c d, dims_ok c d = true -> footprint_ok c d = true.
Proof.
  intros c d H. unfold footprint_ok.
  destruct c; try reflexivity; cbn [footprint dims_ok] in *; change [0] with (upto 1); unfold rd, wr.
  all: try (destruct (d_hassol d && _) eqn:E; [apply andb_true_iff in E as [_ E] | reflexivity]).
  (* a prefix of a buffer of the declared length *)
  all: rewrite ?forallb_app; cbn [forallb]; rewrite ?access_upto; cbn [buf_len];
    rewrite ?Nat.leb_refl, ?E; try reflexivity.
  (* addColRational, addRowRational: denominators are read at the positions of non-zero numerators *)
  1, 2: unfold access_ok; cbn [a_buf a_idx buf_len]; now rewrite nz_positions_within.
  (* getLowerReal, getObjReal, getUpperReal: the temporary has dimension dim or numCols *)
  2, 3, 4: unfold tmp_dim_vecgetter; destruct (d_scaled d) eqn:Es; cbn [forallb]; rewrite ?access_upto; cbn [buf_len];
    unfold tmp_dim_vecgetter; now rewrite ?Es, H, ?Nat.leb_refl.
  - (* getPrimalRationalString: the temporary keeps dimension dim unless the getter assigns the solution *)
    unfold tmp_dim_primalstring. destruct (d_hasrat d && d_hassol d); cbn [andb negb] in *; [|now rewrite Nat.leb_refl].
    apply negb_true_iff, Nat.ltb_ge, Nat.leb_le in H. destruct (d_ratcols d <=? dim); now rewrite ?H, ?Nat.leb_refl.
  - (* getRowVectorReal *) now rewrite H.
  - (* getRowVectorRational: only an empty row is copied without a write through the null element pointer *)
    apply Nat.eqb_eq in H. now rewrite H.
Qed.
