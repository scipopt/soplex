(* C01 - OPTIMAL is backed by a primal-dual certificate in the user's problem space.
   The floating-point simplex, presolve and scaling are untrusted witness producers.  These theorems say what an
   accepted witness implies for the LP exactly as the user stated it, for LPs of every size. *)
From Coq Require Import QArith Qabs List Bool.
From SV Require Import Vec LP Cert Cert_Proofs DriverModel Driver_Proofs Driver_Honest RatGateModel SolveGateModel SolveGate_Proofs.
Import ListNotations.
Local Open Scope Q_scope.

(* Weak duality: the dual objective of ANY row multipliers bounds the objective of EVERY feasible point. *)
Theorem C01_weak_duality :
  forall p y x b, dual_bound p y = Some b -> feasible p x -> no_worse p b (objective p x).
Proof. exact weak_duality. Qed.
Print Assumptions C01_weak_duality.

(* An exact primal-dual pair accepted by the checker is optimal: feasible, and no feasible point is better. *)
Theorem C01_exact_certificate_optimal :
  forall p x y, check_opt_exact p x y = true -> optimal p x.
Proof. exact opt_cert_sound. Qed.
Print Assumptions C01_exact_certificate_optimal.

(* What an accepted floating-point answer states, clause by clause (the clause list of the property): bounds and
   sides within tp, slack = row activity within tp, reduced cost = objective - dual-weighted column within td, dual sign
   conditions beyond td only at a bound/side that is tight within tc, reported value = c.x + offset within tv(1+|v|);
   hence the primal vector is feasible within 2 tp. *)
Theorem C01_accepted_answer_satisfies_clauses :
  forall t p x s y d v, 0 <= tp t -> check_opt_tol t p x s y d v = true ->
    opt_tol_clauses t p x s y d v /\ feasible_tol (tp t + tp t) p x.
Proof. exact check_opt_tol_spec. Qed.
Print Assumptions C01_accepted_answer_satisfies_clauses.

(* The transposition identity (y^T A) z = y^T (A z) on which the above rests, for matrices and vectors of any size. *)
Theorem C01_transposition :
  forall A y z, dot (tmat_vec A y) z == dot y (mat_vec A z).
Proof. exact dot_tmat_vec. Qed.
Print Assumptions C01_transposition.

(* No LP has two different verdicts. *)
Theorem C01_verdicts_exclusive :
  forall p, (forall x, optimal p x -> ~ infeasible p) /\ (forall x, optimal p x -> ~ unbounded p) /\ (unbounded p -> ~ infeasible p).
Proof. exact verdicts_exclusive. Qed.
Print Assumptions C01_verdicts_exclusive.

(* the solve driver (solvereal.hpp: _optimize, _preprocessAndSolveReal, _evaluateSolutionReal, _storeSolutionReal,
   _verifySolutionReal, ...), modelled in DriverModel.v and tied to the code by replaying every recorded control trace.
   The simplifier, the scalers and the simplex engine are oracles: the theorems hold for EVERY sequence of answers. *)

(* The OPTIMAL gate: whatever the simplifier, the scaler and the engine answer, optimize() ends with status OPTIMAL only
   with a stored solution that was computed on the user's LP itself (not simplified, not scaled) or that passed
   _verifySolutionReal in the user's problem space (all four violations below their tolerance). *)
Theorem C01_optimal_is_gated :
  forall P orc oscaled s0 r, optimize P orc oscaled FUEL s0 = Done r -> DriverModel.status r = DriverModel.OPTIMAL -> sol_ok r = true.
Proof. exact optimal_is_gated. Qed.
Print Assumptions C01_optimal_is_gated.

(* Exactly the undo maps that separate the solver's LP from the user's LP are applied (internal unscaling, unsimplify,
   persistent unscaling): a gated solution, a ray and a Farkas vector are always handed out in the user's problem space. *)
Theorem C01_stored_solution_in_user_space :
  forall P orc oscaled s0 r, optimize P orc oscaled FUEL s0 = Done r ->
    (sol_ok r || has_ray r || has_farkas r) = true -> is_user_space (sol_space r) = true.
Proof. exact offered_solution_in_user_space. Qed.
Print Assumptions C01_stored_solution_in_user_space.

(* The driver's re-solve recursion (failed verification, polishing pass, singular basis, cycling, exception in unsimplify,
   ENSURERAY) always ends: at most FUEL = 5 nested calls of _preprocessAndSolveReal, for every oracle. *)
Theorem C01_driver_terminates :
  forall P orc oscaled s0, optimize P orc oscaled FUEL s0 <> OutOfFuel.
Proof. exact driver_terminates. Qed.
Print Assumptions C01_driver_terminates.

(* the in-tree verification gate (soplex.hpp getBoundViolation / getRowViolation / getDualViolation / getRedCostViolation and
   the comparison of _verifySolutionReal), modelled in SolveGateModel.v and compared with the code on injected solutions. *)

(* Each of the four bits is exactly the statement "some entry violates by the tolerance or more": the violation functions are
   sound and complete for what they look at (bounds; sides of the row ACTIVITY; multiplier signs against the BASIS STATUS). *)
Theorem C01_gate_bits_characterised :
  forall tf t_o p x y d rst cst, 0 < tf -> 0 < t_o ->
    (Qle_bool tf (fst (bound_violation p x)) = false <->
       forall j, (j < ncols p)%nat -> range_ok tf (c_lo (colj p j)) (c_up (colj p j)) (vnth x j)) /\
    (Qle_bool tf (fst (row_violation p x)) = false <->
       forall i, (i < nrows p)%nat -> range_ok tf (r_lhs (rowi p i)) (r_rhs (rowi p i)) (activity p i x)) /\
    (Qle_bool t_o (fst (dual_violation p rst y)) = false <->
       forall i, (i < nrows p)%nat -> sign_ok t_o (maximize p) (stat rst i) (vnth y i)) /\
    (Qle_bool t_o (fst (redcost_violation p cst d)) = false <->
       forall j, (j < ncols p)%nat -> sign_ok t_o (maximize p) (stat cst j) (vnth d j)).
Proof. exact gate_bits_spec. Qed.
Print Assumptions C01_gate_bits_characterised.

(* A passed gate, TOGETHER WITH the three things it does not look at (slack = activity, reduced cost = c - A^T y, every non-basic
   status names a bound the value sits at) and the objective clause, gives a certificate accepted by check_opt_tol: all clauses
   of the property hold for the user's LP with the tolerances (feastol + es, opttol + ed, tc, tv). *)
Theorem C01_gate_implies_certificate :
  forall tf t_o es ed tcc tvv p x s y d v rst cst,
    0 < tf -> 0 < t_o -> 0 <= es -> 0 <= ed ->
    length x = ncols p -> length d = ncols p -> length s = nrows p -> length y = nrows p ->
    gate_passes tf t_o p x y d rst cst = true ->
    (forall i, (i < nrows p)%nat -> Qabs_le (vnth s i - activity p i x) es = true) ->
    (forall j, (j < ncols p)%nat -> Qabs_le (vnth d j - redcost p y j) ed = true) ->
    (forall j, (j < ncols p)%nat -> status_consistent tcc (stat cst j) (c_lo (colj p j)) (c_up (colj p j)) (vnth x j) = true) ->
    (forall i, (i < nrows p)%nat -> status_consistent tcc (stat rst i) (r_lhs (rowi p i)) (r_rhs (rowi p i)) (vnth s i) = true) ->
    Qabs_le (v - objective p x) (tvv * (1 + Qabs v)) = true ->
    check_opt_tol {| tp := tf + es; td := t_o + ed; tc := tcc; tv := tvv |} p x s y d v = true.
Proof. exact gate_implies_cert. Qed.
Print Assumptions C01_gate_implies_certificate.

(* The gate never lets a primal violation of the tolerance or more pass. *)
Theorem C01_gate_rejects_primal_violation :
  forall tf t_o p x y d rst cst, 0 < tf ->
    (exists j l, (j < ncols p)%nat /\ c_lo (colj p j) = Some l /\ tf <= l - vnth x j) \/
    (exists j u, (j < ncols p)%nat /\ c_up (colj p j) = Some u /\ tf <= vnth x j - u) \/
    (exists i l, (i < nrows p)%nat /\ r_lhs (rowi p i) = Some l /\ tf <= l - activity p i x) \/
    (exists i u, (i < nrows p)%nat /\ r_rhs (rowi p i) = Some u /\ tf <= activity p i x - u) ->
    gate_passes tf t_o p x y d rst cst = false.
Proof. exact gate_rejects_primal_violation. Qed.
Print Assumptions C01_gate_rejects_primal_violation.

(* The gate alone is NOT the certificate: it trusts the basis statuses.  min x, 0 <= x <= 10 with x = 5 reported ON_LOWER and
   reduced cost 1 passes the gate although x is not optimal; the independent checker rejects it (sign condition without a
   tight bound).  This is why every OPTIMAL answer is judged by check_opt_tol and not by the code's own gate. *)
Theorem C01_gate_alone_is_not_a_certificate_refuted :
  gate_passes (1 # 1000000) (1 # 1000000) ex_gate_lp [5] [] [1] [] [ON_LOWER] = true /\
  check_opt_tol {| tp := 1 # 1000000; td := 1 # 1000000; tc := 1 # 10000; tv := 1 # 10000000 |} ex_gate_lp [5] [] [] [1] 5 = false /\
  ~ optimal ex_gate_lp [5].
Proof. exact gate_alone_is_not_a_certificate. Qed.
Print Assumptions C01_gate_alone_is_not_a_certificate_refuted.

(* the status the driver ends with is what its last pass shows (Driver_Honest.v): OPTIMAL is the status of the last inner
   solve (or cycling resolved to it, or the simplifier made the LP vanish), never a left-over of an earlier pass *)
Theorem C01_optimal_is_last_pass : forall P orc oscaled fuel s0 s',
  optimize P orc oscaled fuel s0 = Done s' -> DriverModel.status s' = DriverModel.OPTIMAL ->
  exists f, frame s' = S f /\
    (o_status (orc f) = DriverModel.OPTIMAL \/ (o_status (orc f) = DriverModel.ABORT_CYCLING /\ o_cycstatus (orc f) = DriverModel.OPTIMAL) \/
     (p_simp P = true /\ o_simp (orc f) = S_VANISHED)).
Proof. exact optimal_not_claimed_after_limit. Qed.
Print Assumptions C01_optimal_is_last_pass.

(* non-vacuity: runs and certificates the theorems speak about *)
Definition ex_orec (t : st) (vfail : bool) : orec :=
  {| o_simp := S_OKAY; o_scaled := true; o_status := t; o_throw := false; o_vbits := (false, vfail, false, false);
     o_dualfeas := true; o_cycstatus := ABORT_CYCLING; o_resbasis := true |}.
Definition ex_params : dparams :=
  {| p_simp := true; p_scaler := true; p_persist := true; p_ensureray := false; p_objlim := false |}.
Definition ex_state : dstate :=
  {| simp_on := false; scaler_on := true; loaded := true; scaled := false; sol_scaled := false; intl := false;
     has_basis := false; DriverModel.status := OTHER 0; has_sol := false; has_ray := false; has_farkas := false; apply_pol := false;
     objlim_en := true; opt_calls := 0; unsc_calls := 0; sol_space := user_space; sol_ok := false; frame := O; trace := [] |}.
(* presolved + persistently and internally scaled solve; the row violation fails the verification once, the LP is unscaled
   and solved again without preprocessing: two inner solves, OPTIMAL with a gated solution in user space *)
Example C01_ex_driver_run :
  match optimize ex_params (fun k => ex_orec DriverModel.OPTIMAL (Nat.eqb k 0)) true FUEL ex_state with
  | Done r => DriverModel.status r = DriverModel.OPTIMAL /\ sol_ok r = true /\ frame r = 2%nat /\ scaled r = false /\ is_user_space (sol_space r) = true
  | _ => False
  end.
Proof. vm_compute. repeat split. Qed.

Definition ex_lp : lp :=
  {| maximize := false; offset := 3;
     cols := [ {| c_obj := 1; c_lo := Some 0; c_up := Some 4 |}; {| c_obj := 2; c_lo := Some 0; c_up := None |} ];
     rows := [ {| r_lhs := Some 2; r_coef := [1; 1]; r_rhs := None |} ] |}.
Example C01_ex_certificate_accepted : check_opt_exact ex_lp [2; 0] [1] = true.
Proof. vm_compute. reflexivity. Qed.
Example C01_ex_optimal : optimal ex_lp [2; 0].
Proof. apply C01_exact_certificate_optimal with (y := [1]). vm_compute. reflexivity. Qed.
Example C01_ex_dual_bound : dual_bound ex_lp [1] = Some (5 # 1) \/ exists b, dual_bound ex_lp [1] = Some b /\ b == 5.
Proof. right. eexists. split. vm_compute. reflexivity. reflexivity. Qed.
(* a vertex with consistent statuses passes the gate and the theorem's conclusion holds *)
Example C01_ex_gate :
  gate_passes (1 # 1000000) (1 # 1000000) ex_lp [2; 0] [1] [0; 1] [ON_LOWER] [BASIC; ON_LOWER] = true /\
  check_opt_tol {| tp := (1 # 1000000) + 0; td := (1 # 1000000) + 0; tc := 0; tv := 0 |} ex_lp [2; 0] [2] [1] [0; 1] 5 = true.
Proof. split; vm_compute; reflexivity. Qed.

