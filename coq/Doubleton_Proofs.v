(* C08 - DoubletonEquationPS::execute (PostsolveModel.exec_DoubletonEquation): when the step fires it makes column k basic with
   reduced cost 0 by choosing the multiplier of the equation row i, and prices the singleton column j with ITS coefficient a_ij;
   the number of basic variables stays the same when x_j is basic whenever x_k is not (DoubletonEquation_count). *)
From Coq Require Import QArith Qabs List Bool Arith Lia Lqa Setoid.
From SV Require Import Vec LP Cert PostsolveModel Postsolve_Proofs.
Import ListNotations.
Local Open Scope Q_scope.

(* the guard of exec_DoubletonEquation: the step leaves the state as it is when this is false *)
Definition dbl_fires (c : cmps) (j k : nat) (maxSense strictLo strictUp : bool) (t : st) : bool :=
  let ck := gcs t k in
  let rj := gr t j in
  negb (is_basic ck) &&
     ((vstat_eqb ck ON_LOWER && strictLo) || (vstat_eqb ck ON_UPPER && strictUp) ||
      (vstat_eqb ck FIXED &&
         ((maxSense && ((Qltb' 0 rj && strictUp) || (Qltb' rj 0 && strictLo))) ||
          (negb maxSense && ((Qltb' 0 rj && strictLo) || (Qltb' rj 0 && strictUp)))))).

Lemma sdot_skip_qupd col i y v : sdot_skip col i (qupd y i v) == sdot_skip col i y.
Proof.
  induction col as [|[l a] col IH]; simpl; [reflexivity|]. rewrite IH.
  destruct (Nat.eqb_spec l i) as [->|Hne]; [reflexivity|]. rewrite vnth_qupd_other by congruence. reflexivity.
Qed.

(* the step does nothing unless it fires; then it writes y_i, the reduced costs of k and j, a non-basic status for j
   and BASIC for k *)
Lemma exec_DoubletonEquation_idle c j k i ms jf jObj kObj aij slo sup loj col t :
  dbl_fires c j k ms slo sup t = false -> exec_DoubletonEquation c j k i ms jf jObj kObj aij slo sup loj col t = t.
Proof. intros F. unfold exec_DoubletonEquation. unfold dbl_fires in F. now rewrite F. Qed.

Lemma exec_DoubletonEquation_fired c j k i ms jf jObj kObj aij slo sup loj col t :
  dbl_fires c j k ms slo sup t = true ->
  let val := kObj - sdot_skip col i (sy t) in
  exists v, is_basic v = false /\
    exec_DoubletonEquation c j k i ms jf jObj kObj aij slo sup loj col t =
    mkst (sx t) (qupd (sy t) i (val / sget col i)) (ss t) (qupd (qupd (sr t) k 0) j (jObj - val * aij / sget col i))
         (supd (supd (scs t) j v) k BASIC) (srs t).
Proof.
  intros F. unfold exec_DoubletonEquation. unfold dbl_fires in F. rewrite F. destruct t as [x y s r cs rs].
  destruct jf; [exists FIXED; split; reflexivity|]. cbv zeta.
  match goal with |- context [if ?b then set_cs _ _ ON_LOWER else _] => destruct b end;
    [exists ON_LOWER | exists ON_UPPER]; split; reflexivity.
Qed.

(* the dual identities of the two columns: column k (vector col, cost kObj) gets reduced cost 0, the singleton column j (entry a_ij
   in row i only, cost jObj) gets c_j - a_ij y_i *)
Theorem DoubletonEquation_dual_update c j k i ms jf jObj kObj aij slo sup loj col t :
  dbl_fires c j k ms slo sup t = true -> j <> k -> ~ sget col i == 0 ->
  let t' := exec_DoubletonEquation c j k i ms jf jObj kObj aij slo sup loj col t in
  gr t' k == kObj - (sdot_skip col i (sy t') + sget col i * gy t' i) /\
  gr t' j == jObj - aij * gy t' i /\
  (forall l, l <> i -> gy t' l = gy t l) /\ (forall q, q <> j -> q <> k -> gr t' q = gr t q).
Proof.
  intros F Hjk Ha t'. destruct (exec_DoubletonEquation_fired c j k i ms jf jObj kObj aij slo sup loj col t F) as (v & _ & E).
  unfold t'. rewrite E. unfold gr, gy; cbn [sr sy]. repeat split.
  - rewrite vnth_qupd_other by congruence. rewrite vnth_qupd_same, vnth_qupd_same, sdot_skip_qupd. field. exact Ha.
  - rewrite !vnth_qupd_same. field. exact Ha.
  - intros l Hl. rewrite vnth_qupd_other by congruence. reflexivity.
  - intros q Hq1 Hq2. rewrite !vnth_qupd_other by congruence. reflexivity.
Qed.

(* DoubletonEquationPS only exchanges the roles of x_j and x_k: the count is unchanged if x_j is basic whenever
   x_k is not (the step fires only for a non-basic x_k) *)
Lemma DoubletonEquation_count c j k i ms jf jo ko aij slo sup loj col t n m : (j < n)%nat -> (k < n)%nat -> j <> k ->
  (is_basic (gcs t k) = false -> is_basic (gcs t j) = true) ->
  let t' := exec_DoubletonEquation c j k i ms jf jo ko aij slo sup loj col t in
  (cntb (scs t') n + cntb (srs t') m = cntb (scs t) n + cntb (srs t) m)%nat.
Proof.
  intros Hj Hk Hjk Hb t'. unfold t'. destruct (dbl_fires c j k ms slo sup t) eqn:F.
  2: now rewrite exec_DoubletonEquation_idle.
  destruct (exec_DoubletonEquation_fired c j k i ms jf jo ko aij slo sup loj col t F) as (v & Hv & ->).
  apply andb_true_iff in F as [Ec _]. apply negb_true_iff in Ec. cbn [scs srs]. f_equal.
  pose proof (cntb_supd (scs t) j v n Hj) as E1.
  pose proof (cntb_supd (supd (scs t) j v) k BASIC n Hk) as E2.
  rewrite snth_supd_other in E2 by exact Hjk.
  unfold b1, gcs in *. rewrite Hv, (Hb Ec) in E1. rewrite Ec in E2. simpl in E2. lia.
Qed.
