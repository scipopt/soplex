(* Linear programs over exact rationals, as the user of SoPlex states them:
     min/max  c.x + offset   s.t.  lhs <= A x <= rhs,  lo <= x <= up      (None = infinite side/bound).
   Rows carry dense coefficient lists (zero padded).  Meaning of feasible / optimal / unbounded. *)
From Coq Require Import QArith List Lia Lqa Bool.
From SV Require Import Vec.
Import ListNotations.
Local Open Scope Q_scope.

Record col := { c_obj : Q; c_lo : option Q; c_up : option Q }.
Record row := { r_lhs : option Q; r_coef : list Q; r_rhs : option Q }.
Record lp := { maximize : bool; offset : Q; cols : list col; rows : list row }.

Definition dcol : col := {| c_obj := 0; c_lo := None; c_up := None |}.
Definition drow : row := {| r_lhs := None; r_coef := []; r_rhs := None |}.

Definition ncols (p : lp) : nat := length (cols p).
Definition nrows (p : lp) : nat := length (rows p).
Definition colj (p : lp) (j : nat) : col := nth j (cols p) dcol.
Definition rowi (p : lp) (i : nat) : row := nth i (rows p) drow.
Definition objvec (p : lp) : list Q := map c_obj (cols p).
Definition matrix (p : lp) : list (list Q) := map r_coef (rows p).

Definition in_lo (lo : option Q) (v : Q) : Prop := match lo with None => True | Some l => l <= v end.
Definition in_up (up : option Q) (v : Q) : Prop := match up with None => True | Some u => v <= u end.

Definition activity (p : lp) (i : nat) (x : list Q) : Q := dot (r_coef (rowi p i)) x.

Definition feasible (p : lp) (x : list Q) : Prop :=
  length x = ncols p /\
  (forall j, (j < ncols p)%nat -> in_lo (c_lo (colj p j)) (vnth x j) /\ in_up (c_up (colj p j)) (vnth x j)) /\
  (forall i, (i < nrows p)%nat -> in_lo (r_lhs (rowi p i)) (activity p i x) /\ in_up (r_rhs (rowi p i)) (activity p i x)).

Definition objective (p : lp) (x : list Q) : Q := dot (objvec p) x + offset p.

(* a is at least as good an objective value as b *)
Definition no_worse (p : lp) (a b : Q) : Prop := if maximize p then b <= a else a <= b.
Definition strictly_better (p : lp) (a b : Q) : Prop := if maximize p then b < a else a < b.

Definition optimal (p : lp) (x : list Q) : Prop :=
  feasible p x /\ forall x', feasible p x' -> no_worse p (objective p x) (objective p x').

Definition infeasible (p : lp) : Prop := forall x, ~ feasible p x.

(* no finite optimum although feasible: every feasible point is strictly beaten by another one *)
Definition unbounded (p : lp) : Prop :=
  (exists x, feasible p x) /\ forall x, feasible p x -> exists x', feasible p x' /\ strictly_better p (objective p x') (objective p x).

(* +1 for minimisation, -1 for maximisation *)
Definition sgn (p : lp) : Q := if maximize p then -1 else 1.

Lemma sgn_sq p : sgn p * sgn p == 1.
Proof. unfold sgn; destruct (maximize p); ring. Qed.

Lemma no_worse_sgn p a b : no_worse p a b <-> sgn p * a <= sgn p * b.
Proof. unfold no_worse, sgn; destruct (maximize p); split; intros; lra. Qed.

Lemma strictly_better_sgn p a b : strictly_better p a b <-> sgn p * a < sgn p * b.
Proof. unfold strictly_better, sgn; destruct (maximize p); split; intros; lra. Qed.

(* boolean versions used by the extracted checkers *)
Definition Qltb (a b : Q) : bool := negb (Qle_bool b a).
Lemma Qltb_lt a b : Qltb a b = true <-> a < b.
Proof.
  unfold Qltb. rewrite negb_true_iff, <- not_true_iff_false, Qle_bool_iff. split; [apply Qnot_le_lt | apply Qlt_not_le].
Qed.
Lemma Qltb_false a b : Qltb a b = false <-> b <= a.
Proof. unfold Qltb. rewrite negb_false_iff. apply Qle_bool_iff. Qed.

Definition in_lo_b (lo : option Q) (v : Q) : bool := match lo with None => true | Some l => Qle_bool l v end.
Definition in_up_b (up : option Q) (v : Q) : bool := match up with None => true | Some u => Qle_bool v u end.
Lemma in_lo_b_iff lo v : in_lo_b lo v = true <-> in_lo lo v.
Proof. destruct lo; simpl; [apply Qle_bool_iff | tauto]. Qed.
Lemma in_up_b_iff up v : in_up_b up v = true <-> in_up up v.
Proof. destruct up; simpl; [apply Qle_bool_iff | tauto]. Qed.

Definition forall_lt (n : nat) (f : nat -> bool) : bool := forallb f (seq 0 n).
Lemma forall_lt_iff n f : forall_lt n f = true <-> forall i, (i < n)%nat -> f i = true.
Proof.
  unfold forall_lt. rewrite forallb_forall. split; intros H i Hi.
  - apply H. apply in_seq. lia.
  - apply in_seq in Hi. apply H. lia.
Qed.

Definition feasible_b (p : lp) (x : list Q) : bool :=
  Nat.eqb (length x) (ncols p)
  && forall_lt (ncols p) (fun j => in_lo_b (c_lo (colj p j)) (vnth x j) && in_up_b (c_up (colj p j)) (vnth x j))
  && forall_lt (nrows p) (fun i => in_lo_b (r_lhs (rowi p i)) (activity p i x) && in_up_b (r_rhs (rowi p i)) (activity p i x)).

Lemma in_both_b_iff lo up a b : in_lo_b lo a && in_up_b up b = true <-> in_lo lo a /\ in_up up b.
Proof. rewrite andb_true_iff, in_lo_b_iff, in_up_b_iff. reflexivity. Qed.

Lemma feasible_b_iff p x : feasible_b p x = true <-> feasible p x.
Proof.
  unfold feasible_b, feasible. rewrite !andb_true_iff, Nat.eqb_eq, !forall_lt_iff.
  split.
  - intros [[H1 H2] H3]. split; [exact H1|]. split; intros k Hk; apply in_both_b_iff; auto.
  - intros (H1 & H2 & H3). split; [split; [exact H1|]|]; intros k Hk; apply in_both_b_iff; auto.
Qed.
