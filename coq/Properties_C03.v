(* C03 - Exact (rational) solve returns exactly verifiable results and the true status.
   The floating-point inner solves, rational reconstruction, the rational LU and the LP reformulations (lifting, equality
   form, feasibility / unboundedness problems) are untrusted witness producers.  Proved here, for LPs of every size:
     - the meaning of the certificates every returned answer is checked with (C01/C02 theorems, restated);
     - the decision kernels of the refinement loop accept only what the exact optimality checker accepts;
     - the verdict logic of _optimizeRational never produces OPTIMAL / INFEASIBLE / UNBOUNDED from a stopped or failed
       oracle answer, and only from the answers that justify it;
     - the objective value the code computes is c.x  (the objective offset is missing: refutation by witness). *)
From Coq Require Import QArith ZArith List Bool.
From SV Require Import Vec LP Cert Cert_Proofs RatGateModel RatGate_Proofs.
Import ListNotations.
Local Open Scope Q_scope.

(* (a) If slacks = A x, reduced costs = c - A^T y, the range types are those of the bounds, every non-basic column sits on the
   finite bound its status names, every non-basic row status names a finite side, and the models of the four violation
   functions return values <= 0, then the exact optimality checker accepts (x, y). *)
Theorem C03_gate_zero_is_optimal :
  forall g s, gate_consistent g s = true -> gate_zero g s = true ->
    check_opt_exact (g_lp g) (s_primal s) (s_dual s) = true.
Proof. exact gate_zero_is_optimal. Qed.
Print Assumptions C03_gate_zero_is_optimal.

(* ... hence x is an optimal solution of the rational LP (zero duality gap: no feasible point is better). *)
Theorem C03_gate_zero_optimal :
  forall g s, gate_consistent g s = true -> gate_zero g s = true -> optimal (g_lp g) (s_primal s).
Proof. exact gate_zero_optimal. Qed.
Print Assumptions C03_gate_zero_optimal.

(* The hypothesis "the range types are those of the bounds" cannot be dropped: with a mirrored row type ('>=' row marked UPPER)
   all four violations are zero, all other hypotheses hold, and the point violates the row.  Hence the bookkeeping invariant
   _rowTypes[i] = _rangeTypeRational(lhs_i, rhs_i), _colTypes[j] likewise, is compared with the object's state after every
   solve of a history (checks/C03.py, family 'hist'). *)
Theorem C03_gate_needs_matching_types :
  exists g s,
    gate_zero g s = true /\
    forall_lt (ncols (g_lp g)) (col_status_ok g (s_primal s)) = true /\
    forall_lt (nrows (g_lp g)) (row_status_ok g) = true /\
    forall_lt (nrows (g_lp g)) (fun i => Qeq_bool (vnth (s_slacks s) i) (activity (g_lp g) i (s_primal s))) = true /\
    forall_lt (ncols (g_lp g)) (fun j => Qeq_bool (vnth (s_redcost s) j) (redcost (g_lp g) (s_dual s) j)) = true /\
    types_match g = false /\
    feasible_b (g_lp g) (s_primal s) = false /\
    check_opt_exact (g_lp g) (s_primal s) (s_dual s) = false.
Proof. exact gate_needs_matching_types. Qed.
Print Assumptions C03_gate_needs_matching_types.

(* The four violations are maxima over a non-negative start value: "<= 0" means "= 0". *)
Theorem C03_violations_nonnegative :
  forall g s, 0 <= bounds_violation g s /\ 0 <= sides_violation g s /\ 0 <= redcost_violation g s /\ 0 <= dual_violation g s.
Proof. exact violations_nonneg. Qed.
Print Assumptions C03_violations_nonnegative.

(* (b) The verdict automaton: for every configuration and every script of oracle answers,
     OPTIMAL     only directly after an answer of the optimisation refinement with primalFeasible && dualFeasible and no
                 error / stop flag;
     INFEASIBLE  only after the feasibility refinement reported a Farkas proof (tau < 1) without error / stop flag
                 (possibly followed by the dual-infeasibility test, which must not have failed);
     UNBOUNDED   only directly after the feasibility refinement reported feasibility (no Farkas proof, no error, no stop)
                 and the most recent unboundedness test reported a ray (tau >= 1) without error / stop flag;
     any of the three only if the optimisation answer of the final pass carries no error / stop flag. *)
Theorem C03_verdict_automaton_sound :
  forall k script v log, optimize_rational k script = Some (v, log) -> justified k v log.
Proof. exact verdict_automaton_sound. Qed.
Print Assumptions C03_verdict_automaton_sound.

Theorem C03_verdict_needs_clean_answer :
  forall k script v log a bl log',
    optimize_rational k script = Some (v, log) -> log = EOpt a bl :: log' -> clean a = false -> is_verdict v = false.
Proof. intros k script v log a bl log' H -> C. exact (verdict_needs_clean_answer k script v _ a H eq_refl C). Qed.
Print Assumptions C03_verdict_needs_clean_answer.

(* (c) The objective value.  Full statement "reported value = c.x + offset" holds for the model of the code exactly when
   the offset is zero; what the code computes is c.x. *)
Theorem C03_objective_is_cx_plus_offset_partial :
  forall p x, model_objval p x == objective p x - offset p.
Proof. exact objective_is_cx_plus_offset_partial. Qed.
Print Assumptions C03_objective_is_cx_plus_offset_partial.

Theorem C03_objective_is_cx_plus_offset_iff :
  forall p x, model_objval p x == objective p x <-> offset p == 0.
Proof. exact objective_is_cx_plus_offset_iff. Qed.
Print Assumptions C03_objective_is_cx_plus_offset_iff.

(* refutation witness (replayed on the implementation by checks/C03.py):  min x0 + 2 x1 + 100, x0 + x1 >= 2, x >= 0 *)
Definition off_lp : lp :=
  {| maximize := false; offset := 100;
     cols := [ {| c_obj := 1; c_lo := Some 0; c_up := None |}; {| c_obj := 2; c_lo := Some 0; c_up := None |} ];
     rows := [ {| r_lhs := Some 2; r_coef := [1; 1]; r_rhs := None |} ] |}.

Theorem C03_objective_offset_refuted :
  exists p x, check_opt_exact p x [1] = true /\ ~ model_objval p x == objective p x.
Proof. exists off_lp, [2; 0]. split; [vm_compute; reflexivity | vm_compute; discriminate]. Qed.
Print Assumptions C03_objective_offset_refuted.

(* The meaning of the certificates used by the end-to-end validation (theorems of C01 / C02). *)
Theorem C03_optimal_certificate_sound :
  forall p x y, check_opt_exact p x y = true -> optimal p x.
Proof. exact opt_cert_sound. Qed.
Print Assumptions C03_optimal_certificate_sound.

Theorem C03_farkas_certificate_sound :
  forall p y, check_farkas p y = true -> infeasible p.
Proof. exact farkas_sound. Qed.
Print Assumptions C03_farkas_certificate_sound.

Theorem C03_ray_certificate_sound :
  forall p x0 r, feasible p x0 -> check_ray p r = true -> unbounded p.
Proof. exact ray_unbounded. Qed.
Print Assumptions C03_ray_certificate_sound.

Theorem C03_verdicts_exclusive :
  forall p, (forall x, optimal p x -> ~ infeasible p) /\ (forall x, optimal p x -> ~ unbounded p) /\ (unbounded p -> ~ infeasible p).
Proof. exact verdicts_exclusive. Qed.
Print Assumptions C03_verdicts_exclusive.

(* Non-vacuity *)
(* the gate on the optimal vertex of off_lp: row at its left-hand side, column 0 basic, column 1 at its lower bound *)
Definition ex_gate : gate :=
  {| g_lp := off_lp; g_infty := 10 ^ 100; g_ctypes := [RT_LOWER; RT_LOWER]; g_rtypes := [RT_LOWER];
     g_cstat := [BASIC; ON_LOWER]; g_rstat := [ON_LOWER] |}.
Definition ex_sol : rsol := {| s_primal := [2; 0]; s_slacks := [2]; s_dual := [1]; s_redcost := [0; 1] |}.
Example C03_ex_gate_hypotheses : gate_consistent ex_gate ex_sol = true /\ gate_zero ex_gate ex_sol = true.
Proof. split; vm_compute; reflexivity. Qed.
Example C03_ex_gate_conclusion : optimal off_lp [2; 0].
Proof. apply (C03_gate_zero_optimal ex_gate ex_sol); vm_compute; reflexivity. Qed.
(* a feasible but slack row with status ON_LOWER is counted as a side violation (complementary slackness term) *)
Example C03_ex_cs_term :
  sides_violation ex_gate {| s_primal := [3; 0]; s_slacks := [3]; s_dual := [1]; s_redcost := [0; 1] |} == 1.
Proof. vm_compute. reflexivity. Qed.
(* a negative reduced cost on a column at its lower bound is a violation when minimising, not when maximising *)
Example C03_ex_sign :
  redcost_violation ex_gate {| s_primal := [2; 0]; s_slacks := [2]; s_dual := [3]; s_redcost := [-2; -1] |} == 2.
Proof. vm_compute. reflexivity. Qed.

Definition a_optimal : ans := {| a_pf := true; a_df := true; a_inf := false; a_unb := false; a_st := false; a_si := false; a_err := false |}.
Definition a_infeas : ans := {| a_pf := false; a_df := false; a_inf := true; a_unb := false; a_st := false; a_si := false; a_err := false |}.
Definition a_unbd : ans := {| a_pf := false; a_df := false; a_inf := false; a_unb := true; a_st := false; a_si := false; a_err := false |}.
Definition a_error : ans := {| a_pf := false; a_df := false; a_inf := false; a_unb := false; a_st := false; a_si := false; a_err := true |}.
Definition a_stopped : ans := {| a_pf := true; a_df := true; a_inf := false; a_unb := false; a_st := true; a_si := false; a_err := false |}.
Definition k0 : cfg := {| k_boosting := true; k_testdualinf := false; k_feastol := 0 |}.

Example C03_ex_run_optimal : exists log, optimize_rational k0 [EOpt a_optimal false] = Some (S_OPTIMAL, log).
Proof. eexists. vm_compute. reflexivity. Qed.
Example C03_ex_run_infeasible :
  exists log, optimize_rational k0 [EOpt a_infeas false; EFeas a_optimal (1 # 2)] = Some (S_INFEASIBLE, log).
Proof. eexists. vm_compute. reflexivity. Qed.
Example C03_ex_run_unbounded :
  exists log, optimize_rational k0 [EOpt a_unbd false; EUnbd a_optimal 1; EFeas a_optimal 1] = Some (S_UNBOUNDED, log).
Proof. eexists. vm_compute. reflexivity. Qed.
(* infeasibility claimed by the floating-point solve but refuted by the feasibility test: optimise again, then optimal *)
Example C03_ex_run_retry :
  exists log, optimize_rational k0 [EOpt a_infeas false; EFeas a_optimal 1; ESetup true; EStop false false; EOpt a_optimal false]
              = Some (S_OPTIMAL, log).
Proof. eexists. vm_compute. reflexivity. Qed.
(* a stopped answer with both feasibility flags set does not become OPTIMAL *)
Example C03_ex_run_stopped : exists log, optimize_rational k0 [EOpt a_stopped false] = Some (S_ABORT_TIME, log).
Proof. eexists. vm_compute. reflexivity. Qed.
Example C03_ex_run_error : exists log, optimize_rational k0 [EOpt a_error true] = Some (S_ERROR, log).
Proof. eexists. vm_compute. reflexivity. Qed.
(* a ray found in an earlier pass is used when a later pass establishes feasibility (hasUnboundedRay is not reset) *)
Example C03_ex_run_stale_ray :
  exists log, optimize_rational k0 [EOpt a_unbd false; EUnbd a_optimal 1; EFeas a_error 0; ESetup true; EStop false false;
                                    EOpt a_infeas false; EFeas a_optimal 1] = Some (S_UNBOUNDED, log).
Proof. eexists. vm_compute. reflexivity. Qed.
