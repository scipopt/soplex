(* C08 - FreeColSingletonPS::execute (coq/PostsolveModel.v, exec_FreeColSingleton): column j occurs in row i only and is
   free (or implied free); the reduction removes row i and column j and moves the cost of x_j onto the other columns of
   the row (c_k - (c_j / a_ij) a_ik).  With the row and the column put back, slack = A x and redcost = c - A^T y hold
   for the original LP. *)
From Coq Require Import QArith Qabs List Bool Arith Lia Lqa Setoid.
From SV Require Import ListAux Vec LP Cert Cert_Proofs PostsolveModel Postsolve_Proofs RowSingleton_Proofs.
Import ListNotations.
Local Open Scope Q_scope.

(* the LP after the reduction (offset and the side of the removed row do not matter for the identities) *)
Definition red_FreeColSingleton (P : lp) (i j : nat) (q : Q) : lp :=
  {| maximize := maximize P; offset := offset P;
     cols := swap_remove dcol j
               (map (fun k => {| c_obj := c_obj (colj P k) - q * coef P i k; c_lo := c_lo (colj P k); c_up := c_up (colj P k) |})
                    (seq 0 (ncols P)));
     rows := swap_remove drow i
               (map (fun rw => {| r_lhs := r_lhs rw; r_coef := swap_remove 0 j (r_coef rw); r_rhs := r_rhs rw |}) (rows P)) |}.

Lemma scaled_diff_exact inf a b : scaled_diff (exact_cmps inf) a b == a - b.
Proof.
  unfold scaled_diff. cbn [zero_e exact_cmps].
  set (sc := if Qltb' (maxabs a b) 1 then 1 else maxabs a b).
  assert (Hsc : ~ sc == 0).
  { unfold sc. destruct (Qltb'_spec (maxabs a b) 1) as [|E]; [discriminate|]. intros Z. rewrite Z in E. lra. }
  destruct (Qeq_bool (a / sc - b / sc) 0) eqn:E.
  - apply Qeq_bool_iff in E. assert (a - b == (a / sc - b / sc) * sc) by (field; exact Hsc). rewrite H, E. ring.
  - field. exact Hsc.
Qed.

(* the four vectors exec_FreeColSingleton writes, for abstract recorded data *)
Lemma exec_FreeColSingleton_fields c j i oj oi obj lRhs onLhs eqCons row t :
  let t' := exec_FreeColSingleton c j i oj oi obj lRhs onLhs eqCons row t in
  sx t' = unswap (sx t) j oj (scaled_diff c lRhs (sdot_skip row j (if Nat.eqb j oj then sx t else qupd (sx t) oj (vnth (sx t) j))) / sget row j) /\
  sy t' = unswap (sy t) i oi (obj / sget row j) /\ ss t' = unswap (ss t) i oi lRhs /\ sr t' = unswap (sr t) j oj 0.
Proof.
  destruct t as [x y s r cs rs].
  unfold exec_FreeColSingleton, fix_row_idx, fix_col_idx, unswap.
  destruct (Nat.eqb i oi), (Nat.eqb j oj); repeat split; reflexivity.
Qed.

Lemma emb_neq i n k : (i <= n)%nat -> (k < n)%nat -> emb i n k <> i.
Proof. intros Hi Hk. unfold emb. destruct (Nat.eqb_spec k i); lia. Qed.

(* A^T y without row i, as a sum over the remaining rows *)
Lemma tvec_remove_row_sumn P i y k :
  vnth (tmat_vec (swap_remove [] i (matrix P)) y) k
  == sumn (nrows P - 1) (fun l => vnth y l * coef P (emb i (nrows P - 1) l) k).
Proof.
  rewrite tmat_vec_sumn, swap_remove_length, matrix_length. apply sumn_ext. intros l Hl.
  rewrite nth_swap_remove, matrix_length, nth_matrix by (rewrite matrix_length; exact Hl). reflexivity.
Qed.

Section FreeColSingleton.
  Variable P : lp.
  Variables i j : nat.
  Hypothesis W : wf_lp P.
  Hypothesis Hi : (i < nrows P)%nat.
  Hypothesis Hj : (j < ncols P)%nat.
  Hypothesis Hs : forall l, l <> i -> coef P l j == 0.       (* column singleton *)
  Hypothesis Ha : ~ coef P i j == 0.
  Let m1 := (nrows P - 1)%nat.
  Let n1 := (ncols P - 1)%nat.
  Let q := c_obj (colj P j) / coef P i j.
  Let R := red_FreeColSingleton P i j q.

  Lemma nrows_R : nrows R = m1.
  Proof. unfold R, nrows, red_FreeColSingleton; cbn [rows]. rewrite swap_remove_length, map_length. reflexivity. Qed.

  Lemma ncols_R : ncols R = n1.
  Proof. unfold R, ncols, red_FreeColSingleton; cbn [cols]. rewrite swap_remove_length, map_length, seq_length. reflexivity. Qed.

  Lemma rowi_R l : (l < m1)%nat -> r_coef (rowi R l) = swap_remove 0 j (r_coef (rowi P (emb i m1 l))).
  Proof.
    intros Hl. unfold R, rowi, red_FreeColSingleton; cbn [rows].
    set (f := fun rw => {| r_lhs := r_lhs rw; r_coef := swap_remove 0 j (r_coef rw); r_rhs := r_rhs rw |}).
    rewrite nth_swap_remove by (rewrite map_length; exact Hl). rewrite map_length. fold (nrows P). fold m1.
    change drow with (f drow) at 1. rewrite map_nth. reflexivity.
  Qed.

  Lemma coef_R l k : (l < m1)%nat -> (k < n1)%nat -> coef R l k = coef P (emb i m1 l) (emb j n1 k).
  Proof.
    intros Hl Hk. unfold coef at 1. rewrite rowi_R by exact Hl.
    assert (Hr : (emb i m1 l < nrows P)%nat) by (unfold emb, m1 in *; destruct (Nat.eqb l i); lia).
    rewrite vnth_swap_remove by (rewrite W by exact Hr; exact Hk). rewrite W by exact Hr. reflexivity.
  Qed.

  Lemma obj_R k : (k < n1)%nat -> c_obj (colj R k) = c_obj (colj P (emb j n1 k)) - q * coef P i (emb j n1 k).
  Proof.
    intros Hk. unfold R, colj at 1, red_FreeColSingleton; cbn [cols].
    rewrite nth_swap_remove by (rewrite map_length, seq_length; exact Hk). rewrite map_length, seq_length. fold n1.
    rewrite nth_map_seq by (unfold emb, n1 in *; destruct (Nat.eqb k j); lia). reflexivity.
  Qed.

  (* the restored point: x_j from the side lRhs of row i, y_i = c_j / a_ij, r_j = 0 *)
  Lemma FreeColSingleton_vectors t xj yi lRhs cs rs : prim_ident R t -> dual_ident R t ->
    xj == (lRhs - dot (swap_remove 0 j (r_coef (rowi P i))) (sx t)) / coef P i j -> yi == q ->
    let t' := mkst (unswap (sx t) j n1 xj) (unswap (sy t) i m1 yi) (unswap (ss t) i m1 lRhs) (unswap (sr t) j n1 0) cs rs in
    prim_ident P t' /\ dual_ident P t'.
  Proof.
    intros H1 H2 Ex Ey t'. unfold t'. split.
    - unfold prim_ident, gs; cbn [ss sx].
      apply (unswap_cases i (nrows P) (fun l a _ => a == activity P l (unswap (sx t) j n1 xj)) (ss t) (ss t) _ 0); [exact Hi | |].
      + (* the restored row: its activity is lRhs by the choice of x_j *)
        unfold n1. rewrite activity_unswap, Ex by assumption. field. exact Ha.
      + (* another row: the column is a singleton, x_j does not enter *)
        fold m1. intros l Hl. assert (Hr : (emb i m1 l < nrows P)%nat) by (unfold emb, m1 in *; destruct (Nat.eqb l i); lia).
        unfold n1. rewrite activity_unswap, (Hs _ (emb_neq i m1 l ltac:(unfold m1; lia) Hl)) by assumption.
        assert (Hl' : (l < nrows R)%nat) by (rewrite nrows_R; exact Hl).
        rewrite (H1 l Hl'). unfold activity. rewrite rowi_R by exact Hl. ring.
    - intros k Hk. unfold gr; cbn [sr sy]. unfold m1. rewrite <- matrix_length.
      rewrite tmat_vec_unswap, nth_matrix, tvec_remove_row_sumn, Ey by (rewrite matrix_length; exact Hi). fold m1. fold (coef P i k).
      revert k Hk.
      apply (unswap_cases j (ncols P) (fun k a _ => a == c_obj (colj P k) -
               (sumn m1 (fun l => vnth (sy t) l * coef P (emb i m1 l) k) + q * coef P i k)) (sr t) (sr t) _ 0); [exact Hj | |].
      + (* the restored column: reduced cost 0 *)
        rewrite sumn_zero; [unfold q; field; exact Ha|].
        intros l Hl. cbv beta. rewrite (Hs _ (emb_neq i m1 l ltac:(unfold m1; lia) Hl)). ring.
      + fold n1. intros k Hk. assert (Hk' : (k < ncols R)%nat) by (rewrite ncols_R; exact Hk).
        rewrite (H2 k Hk'), obj_R, tvec_sumn, nrows_R by exact Hk.
        rewrite (sumn_ext m1 _ (fun l => vnth (sy t) l * coef P (emb i m1 l) (emb j n1 k)))
          by (intros l Hl; cbv beta; now rewrite coef_R).
        ring.
  Qed.

  Lemma sget_row_a : sget (sp_row P i) j == coef P i j.
  Proof. exact (sget_sp_of (fun k => coef P i k) (ncols P) j Hj). Qed.

  (* the row's activity without x_j, as the step computes it from the stored row *)
  Lemma skip_val t : sdot_skip (sp_row P i) j (if Nat.eqb j n1 then sx t else qupd (sx t) n1 (vnth (sx t) j))
                     == dot (swap_remove 0 j (r_coef (rowi P i))) (sx t).
  Proof.
    rewrite sdot_skip_sdot. fold (unswap (sx t) j n1 0). unfold n1. rewrite sdot_sp_row, activity_unswap by assumption. ring.
  Qed.

  (* for every comparison record whose scaled difference against lRhs is exact *)
  Lemma FreeColSingleton_identities c lRhs onLhs eqCons t : (forall v, scaled_diff c lRhs v == lRhs - v) ->
    prim_ident R t /\ dual_ident R t ->
    let t' := exec_FreeColSingleton c j i n1 m1 (c_obj (colj P j)) lRhs onLhs eqCons (sp_row P i) t in
    prim_ident P t' /\ dual_ident P t'.
  Proof.
    intros Hsd [H1 H2] t'.
    destruct (exec_FreeColSingleton_fields c j i n1 m1 (c_obj (colj P j)) lRhs onLhs eqCons (sp_row P i) t)
      as (Fx & Fy & Fs & Fr). fold t' in Fx, Fy, Fs, Fr.
    match type of Fx with _ = unswap _ _ _ ?v => set (xj := v) in * end.
    destruct (FreeColSingleton_vectors t xj (c_obj (colj P j) / sget (sp_row P i) j) lRhs [] [] H1 H2) as [A B].
    - unfold xj. rewrite Hsd, sget_row_a, skip_val. reflexivity.
    - unfold q. now rewrite sget_row_a.
    - split; [refine (prim_ident_fields _ _ _ _ _ A) | refine (dual_ident_fields _ _ _ _ _ B)]; assumption.
  Qed.
End FreeColSingleton.
