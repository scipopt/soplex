(* C09 - Scaling is invisible: power-of-two exact, never leaks into what the user sees.
   Each theorem is closed by a lemma of Scaling_Proofs.v or a short derivation from them (the two refutations by a
   computed witness); Examples show that hypotheses are satisfiable.  Exact level: all LPs of every size over Q with tagged infinite sides/bounds, all
   integer exponent vectors (of any length; a missing exponent is 0).  Binary64 level: doubles as mantissa/exponent
   pairs, ldexp with IEEE-754 rounding/overflow, "infinite" as the code tests it (>= 1e100). *)
From Coq Require Import ZArith QArith List Bool Lia.
From SV Require Import Dbl ScalingModel Scaling_Proofs.
Import ListNotations.
Local Open Scope Z_scope.

(* Exact level *)

(* un-scaling a scaled LP reproduces every objective entry, bound, side, row objective and coefficient *)
Theorem C09_unscale_scale_id : forall (r c : list Z) (p : lpQ), lp_eq (unscale r c (apply_scaling r c p)) p.
Proof. exact unscale_scale_id_lemma. Qed.
Print Assumptions C09_unscale_scale_id.

(* re-scaling with the same exponents (what _reapplyPersistentScaling relies on) is the inverse as well *)
Theorem C09_scale_unscale_id : forall (r c : list Z) (p : lpQ), lp_eq (apply_scaling r c (unscale r c p)) p.
Proof. exact scale_unscale_id_lemma. Qed.
Print Assumptions C09_scale_unscale_id.

(* every *Unscaled getter on the scaled LP returns the original datum *)
Theorem C09_getters_see_original : forall (r c : list Z) (p : lpQ),
  (forall i j, coefUnscaled r c (apply_scaling r c p) i j == coef p i j)%Q /\
  (forall j, maxObjUnscaled c (apply_scaling r c p) j == nth j (obj p) 0)%Q /\
  (forall j, ext_eq (lowerUnscaled c (apply_scaling r c p) j) (nth j (lo p) NInf)) /\
  (forall j, ext_eq (upperUnscaled c (apply_scaling r c p) j) (nth j (up p) PInf)) /\
  (forall i, ext_eq (lhsUnscaled r (apply_scaling r c p) i) (nth i (lhs p) NInf)) /\
  (forall i, ext_eq (rhsUnscaled r (apply_scaling r c p) i) (nth i (rhs p) PInf)) /\
  (forall i, Forall2 Qeq (getRowUnscaled r c (apply_scaling r c p) i) (nth i (mat p) [])).
Proof. exact getters_see_original_lemma. Qed.
Print Assumptions C09_getters_see_original.

(* a point is feasible for the scaled LP iff its image under unscalePrimal is feasible for the user's LP *)
Theorem C09_scaled_feasibility_transfer : forall (r c : list Z) (p : lpQ) (x : list Q),
  feasible (apply_scaling r c p) x <-> feasible p (unscalePrimal c x).
Proof. exact scaled_feasibility_transfer_lemma. Qed.
Print Assumptions C09_scaled_feasibility_transfer.

(* s = A x is preserved by unscaleSlacks / unscalePrimal *)
Theorem C09_unscale_slacks : forall (r c : list Z) (p : lpQ) (x s : list Q),
  Forall2 Qeq s (mat_vec (mat (apply_scaling r c p)) x) ->
  Forall2 Qeq (unscaleSlacks r s) (mat_vec (mat p) (unscalePrimal c x)).
Proof. exact unscale_slacks_lemma. Qed.
Print Assumptions C09_unscale_slacks.

(* d = c - A^T y is preserved by unscaleRedCost / unscaleDual *)
Theorem C09_unscale_redcost : forall (r c : list Z) (p : lpQ) (y d : list Q),
  (forall j, nth j d 0 == nth j (obj (apply_scaling r c p)) 0 - col_dot (mat (apply_scaling r c p)) y j)%Q ->
  forall j, (nth j (unscaleRedCost c d) 0 == nth j (obj p) 0 - col_dot (mat p) (unscaleDual r y) j)%Q.
Proof. exact unscale_redcost_lemma. Qed.
Print Assumptions C09_unscale_redcost.

(* the objective value of a scaled-space point equals the user's objective at the unscaled point *)
Theorem C09_unscale_objective : forall (r c : list Z) (p : lpQ) (x : list Q),
  (dot (obj (apply_scaling r c p)) x == dot (obj p) (unscalePrimal c x))%Q.
Proof. exact unscale_objective_lemma. Qed.
Print Assumptions C09_unscale_objective.

(* primal rays: row activities of the scaled ray are those of the unscaled ray times 2^r_i > 0 (so every sign
   condition of a recession direction transfers), and the objective along the ray is the same *)
Theorem C09_unscale_primalray : forall (r c : list Z) (p : lpQ) (ray : list Q),
  Forall2 Qeq (mat_vec (mat (apply_scaling r c p)) ray)
              (map_exp (fun ri v => qldexp v ri) r (mat_vec (mat p) (unscalePrimalray c ray))) /\
  (dot (obj (apply_scaling r c p)) ray == dot (obj p) (unscalePrimalray c ray))%Q.
Proof. exact unscale_primalray_lemma. Qed.
Print Assumptions C09_unscale_primalray.

(* Farkas multipliers: (A'^T y')_j = 2^c_j (A^T unscaleDualray y')_j with 2^c_j > 0, and y'.side' = y.side *)
Theorem C09_unscale_dualray : forall (r c : list Z) (p : lpQ) (y : list Q) (j : nat),
  (col_dot (mat (apply_scaling r c p)) y j == qldexp (col_dot (mat p) (unscaleDualray r y) j) (nth j c 0%Z))%Q.
Proof. exact unscale_dualray_lemma. Qed.
Print Assumptions C09_unscale_dualray.

Theorem C09_unscale_side_product : forall (r : list Z) (b y : list Q),
  (dot (map_exp (fun ri v => qldexp v ri) r b) y == dot b (unscaleDual r y))%Q.
Proof. exact dot_scale_side. Qed.
Print Assumptions C09_unscale_side_product.

(* data changed or added while scaled: storing scaleX(datum) with the current exponents is the same as scaling
   the changed user LP (any exponent e may be chosen for a new row / column) ... *)
Theorem C09_stored_after_change : forall (r c : list Z) (p : lpQ),
  (forall j v, apply_scaling r c (set_obj j v p) = set_obj j (scaleObj c j v) (apply_scaling r c p)) /\
  (forall j v, apply_scaling r c (set_lower j v p) = set_lower j (scaleLower c j v) (apply_scaling r c p)) /\
  (forall j v, apply_scaling r c (set_upper j v p) = set_upper j (scaleUpper c j v) (apply_scaling r c p)) /\
  (forall i v, apply_scaling r c (set_lhs i v p) = set_lhs i (scaleLhs r i v) (apply_scaling r c p)) /\
  (forall i v, apply_scaling r c (set_rhs i v p) = set_rhs i (scaleRhs r i v) (apply_scaling r c p)) /\
  (forall i j v, apply_scaling r c (set_elem i j v p) = set_elem i j (scaleElement r c i j v) (apply_scaling r c p)) /\
  (forall e l u ro row, lp_wf r c p ->
     apply_scaling (r ++ [e]) c (add_row l u ro row p)
     = add_row (ext_ldexp l e) (ext_ldexp u e) (qldexp ro e) (scale_row e c row) (apply_scaling r c p)) /\
  (forall e o l u col, lp_wf r c p -> length col = length r ->
     apply_scaling r (c ++ [e]) (add_col 0%Q o l u col p)
     = add_col 0%Q (qldexp o e) (ext_ldexp l (- e)) (ext_ldexp u (- e)) (scale_col e r col) (apply_scaling r c p)).
Proof.
  intros r c p.
  exact (conj (change_obj_consistent r c p) (conj (change_lower_consistent r c p) (conj (change_upper_consistent r c p)
        (conj (change_lhs_consistent r c p) (conj (change_rhs_consistent r c p) (conj (change_element_consistent r c p)
        (conj (add_row_consistent r c p) (add_col_consistent r c p)))))))).
Qed.
Print Assumptions C09_stored_after_change.

(* ... and therefore un-scales to the user's datum *)
Theorem C09_add_under_scaling_consistent : forall (r c : list Z) (p : lpQ),
  (forall j v, lp_eq (unscale r c (set_obj j (scaleObj c j v) (apply_scaling r c p))) (set_obj j v p)) /\
  (forall j v, lp_eq (unscale r c (set_lower j (scaleLower c j v) (apply_scaling r c p))) (set_lower j v p)) /\
  (forall j v, lp_eq (unscale r c (set_upper j (scaleUpper c j v) (apply_scaling r c p))) (set_upper j v p)) /\
  (forall i v, lp_eq (unscale r c (set_lhs i (scaleLhs r i v) (apply_scaling r c p))) (set_lhs i v p)) /\
  (forall i v, lp_eq (unscale r c (set_rhs i (scaleRhs r i v) (apply_scaling r c p))) (set_rhs i v p)) /\
  (forall i j v, lp_eq (unscale r c (set_elem i j (scaleElement r c i j v) (apply_scaling r c p))) (set_elem i j v p)) /\
  (forall e l u ro row, lp_wf r c p ->
     lp_eq (unscale (r ++ [e]) c (add_row (ext_ldexp l e) (ext_ldexp u e) (qldexp ro e) (scale_row e c row) (apply_scaling r c p)))
           (add_row l u ro row p)) /\
  (forall e o l u col, lp_wf r c p -> length col = length r ->
     lp_eq (unscale r (c ++ [e]) (add_col 0%Q (qldexp o e) (ext_ldexp l (- e)) (ext_ldexp u (- e)) (scale_col e r col) (apply_scaling r c p)))
           (add_col 0%Q o l u col p)).
Proof.
  intros r c p. destruct (C09_stored_after_change r c p) as (H1 & H2 & H3 & H4 & H5 & H6 & H7 & H8).
  split; [|split; [|split; [|split; [|split; [|split; [|split]]]]]]; intros; apply unscale_stored; auto.
Qed.
Print Assumptions C09_add_under_scaling_consistent.

(* a concrete 2x2 instance: dimensions agree, scaling is not the identity, a feasible point transfers *)
Definition ex_lp : lpQ :=
  mkLP [3 # 1; (-1) # 4]%Q [Fin 0; NInf] [Fin (5 # 1); PInf] [Fin (1 # 8); NInf] [PInf; Fin (64 # 1)]
       [0; 0]%Q [[1024 # 1; 1 # 16]; [0; 3 # 1]]%Q.
Definition ex_r : list Z := [-7; 2].
Definition ex_c : list Z := [-3; 4].
Definition ex_x : list Q := [1 # 1; 1 # 16]%Q.
Example ex_wf : lp_wf ex_r ex_c ex_lp.
Proof. unfold lp_wf, ex_lp; cbn; repeat split; auto. Qed.
Example ex_scaled_coef : (coef (apply_scaling ex_r ex_c ex_lp) 0 0 == 1)%Q.
Proof. vm_compute. reflexivity. Qed.
Example ex_feasible : feasible ex_lp (unscalePrimal ex_c ex_x).
Proof. vm_compute. intuition discriminate. Qed.
Example ex_feasible_scaled : feasible (apply_scaling ex_r ex_c ex_lp) ex_x.
Proof. apply C09_scaled_feasibility_transfer. exact ex_feasible. Qed.

(* Binary64 level *)

(* ldexp on a double is exact when no bit is shifted out below 2^-1074 and the result stays below 2^1024 *)
Theorem C09_ldexp_exact_in_range : forall m e k : Z,
  representable m e -> m <> 0 -> EMIN <= e + k -> Z.abs m * 2 ^ (e + k - EMIN) < 2 ^ (EOVER - EMIN) ->
  ldexp_ieee (DFin m e) k = DFin m (e + k) /\ representable m (e + k).
Proof. exact ldexp_exact_in_range_lemma. Qed.
Print Assumptions C09_ldexp_exact_in_range.

(* the two tests that keep ldexp_ieee cheap for absurd exponents (certain overflow, certain underflow to zero) do not
   change its value: it coincides with the plain definition by cases (round below 2^-1074, overflow at 2^1024, else exact) *)
Theorem C09_ldexp_shortcuts_agree : forall (x : dbl) (k : Z), ldexp_ieee x k = ldexp_ieee_plain x k.
Proof. exact ldexp_shortcuts_agree. Qed.
Print Assumptions C09_ldexp_shortcuts_agree.

(* in particular when the result is a normal double (2^-1022 <= |m| 2^(e+k)) *)
Theorem C09_normal_result_loses_no_bit : forall m e' : Z, Z.abs m < 2 ^ PREC -> normal m e' -> EMIN <= e'.
Proof. exact normal_no_bits_lost. Qed.
Print Assumptions C09_normal_result_loses_no_bit.

(* outside the guard: 3 * 2^-1073 scaled by 2^-2 is rounded in the subnormal range and does not come back *)
Example subnormal_counter_case :
  ldexp_ieee (ldexp_ieee (DFin 3 (-1073)) (-2)) 2 = DFin 2 (-1072) /\ deq (DFin 2 (-1072)) (DFin 3 (-1073)) = false.
Proof. vm_compute. split; reflexivity. Qed.
Example subnormal_counter_case_outside_guard : ~ fin_ok 3 (-1073) (-2).
Proof. unfold fin_ok, EMIN. intros [H|H]; lia. Qed.
Example subnormal_lp_not_restored :
  let p := mkLP [DFin 1 0] [DFin 0 0] [DPInf] [DNInf] [DFin 1 0] [DFin 0 0] [[DFin 3 (-1073)]] in
  d_unscale [-2] [0] (d_apply_scaling [-2] [0] p) <> p.
Proof. vm_compute. intros H. discriminate H. Qed.
(* overflow is the other way out of the guard *)
Example overflow_counter_case : ldexp_ieee (DFin 1 1000) 24 = DPInf.
Proof. vm_compute. reflexivity. Qed.

(* bit-for-bit round trip of the stored LP, for all exponent vectors, under the stated guard *)
Theorem C09_d_unscale_scale_id : forall (r c : list Z) (p : lpD),
  d_in_range r c p -> d_unscale r c (d_apply_scaling r c p) = p.
Proof. exact d_unscale_scale_id_lemma. Qed.
Print Assumptions C09_d_unscale_scale_id.

(* getters that test every entry for infinity (all single-index getters; the objective getters) return the
   original datum bit for bit *)
Theorem C09_d_getters_see_original : forall (r c : list Z) (p : lpD),
  d_in_range r c p ->
  let s := d_apply_scaling r c p in
  d_getLowerUnscaled_guarded c s = lo p /\ d_getUpperUnscaled_guarded c s = up p /\
  d_getLhsUnscaled_guarded r s = lhs p /\ d_getRhsUnscaled_guarded r s = rhs p /\
  d_getMaxObjUnscaled c s = obj p /\
  (forall j, (j < length (lo p))%nat -> d_lowerUnscaled c s j = nth j (lo p) DNaN) /\
  (forall j, (j < length (up p))%nat -> d_upperUnscaled c s j = nth j (up p) DNaN) /\
  (forall i, (i < length (lhs p))%nat -> d_lhsUnscaled r s i = nth i (lhs p) DNaN) /\
  (forall i, (i < length (rhs p))%nat -> d_rhsUnscaled r s i = nth i (rhs p) DNaN) /\
  (forall j, (j < length (obj p))%nat -> d_maxObjUnscaled c s j = nth j (obj p) DNaN).
Proof. exact d_getters_see_original_lemma. Qed.
Print Assumptions C09_d_getters_see_original.

(* the stored double LP denotes the exact scaling of the LP the user's doubles denote: the exact-level theorems
   (feasibility transfer, slack / reduced-cost identities, objective) speak about what is stored *)
Theorem C09_d_apply_refines : forall (r c : list Z) (p : lpD),
  d_in_range r c p -> lp_eq (abs_lp (d_apply_scaling r c p)) (apply_scaling r c (abs_lp p)).
Proof. exact d_apply_refines_lemma. Qed.
Print Assumptions C09_d_apply_refines.

(* the guard is satisfiable by a non-trivial LP (entries 2^-40 .. 2^40, an infinite bound, non-zero exponents) *)
Definition ex_dlp : lpD :=
  mkLP [DFin 3 (-40); DFin (-5) 38] [DFin 0 0; dninf] [dinf; DFin 7 20] [DFin 1 (-12); DNInf] [DPInf; DFin 9 30]
       [DFin 0 0; DFin 0 0] [[DFin 1 40; DFin 3 (-40)]; [DFin 0 0; DFin (-11) 5]].
Example ex_d_in_range : d_in_range [-39; 3] [12; -44] ex_dlp.
Proof.
  unfold d_in_range, lp_all, ex_dlp; cbn [obj lo up lhs rhs robj mat all_exp hd tl].
  unfold val_ok, lower_ok, upper_ok, dninf, dinf, fin_ok, EMIN, EOVER.
  repeat split; try (left; reflexivity); try (right; repeat split; vm_compute; congruence);
    try (vm_compute; congruence).
Qed.
Example ex_d_roundtrip : d_unscale [-39; 3] [12; -44] (d_apply_scaling [-39; 3] [12; -44] ex_dlp) = ex_dlp.
Proof. apply C09_d_unscale_scale_id. exact ex_d_in_range. Qed.
Example ex_d_scaled_changes : d_apply_scaling [-39; 3] [12; -44] ex_dlp <> ex_dlp.
Proof. vm_compute. intros H. discriminate H. Qed.

(* Where the code as written departs from the property (faithful models of the vector overloads) *)

(* SPxScaler::getUpperUnscaled / getLowerUnscaled / getLhsUnscaled / getRhsUnscaled (VectorBase&) apply ldexp to every
   entry without testing for infinity: an LP inside the guard whose upper bound is +infinity (1e100) is reported
   with a finite upper bound 1e100 * 2^-3 as soon as the column exponent is -3 *)
Theorem C09_vector_getters_see_original_refuted :
  exists (c : list Z) (p : lpD),
    d_in_range [] c p /\ nth 0 (up p) DNaN = dinf /\
    d_upperUnscaled c (d_apply_scaling [] c p) 0 = dinf /\
    dlt (nth 0 (d_getUpperUnscaled c (d_apply_scaling [] c p)) DNaN) dinf = true.
Proof.
  exists [-3], (mkLP [DFin 1 0] [DFin 0 0] [dinf] [] [] [] []).
  split; [|vm_compute; repeat split; reflexivity].
  unfold d_in_range, lp_all; cbn [obj lo up lhs rhs robj mat all_exp hd tl].
  unfold val_ok, lower_ok, upper_ok, dninf, dinf, fin_ok, EMIN, EOVER.
  repeat split; try (left; reflexivity); try (right; repeat split; vm_compute; congruence);
    try (vm_compute; congruence).
Qed.
Print Assumptions C09_vector_getters_see_original_refuted.

(* SPxLPBase::changeLower / changeUpper / changeLhs / changeRhs (const VectorBase&, scale = true) call scaleLower ...
   on every entry without testing for infinity: a lower bound -infinity (-1e100) is stored as the finite bound
   -1e100 * 2^-3 when the column exponent is 3, whereas the single-index overload stores -1e100 *)
Theorem C09_vector_change_keeps_infinite_bounds_refuted :
  exists (c : list Z) (v : list dbl),
    nth 0 v DNaN = dninf /\ d_changeLower1 c 0 dninf = dninf /\
    dlt dninf (nth 0 (d_changeLower_vec c v) DNaN) = true.
Proof. exists [3], [dninf]. vm_compute. repeat split; reflexivity. Qed.
Print Assumptions C09_vector_change_keeps_infinite_bounds_refuted.
