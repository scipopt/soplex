(* C08 - the post-solve steps of PostsolveModel.v carry the invariants of the walk (slack = A x, reduced cost = c - A^T y,
   feasibility, dual signs, basis count) from the LP after a reduction back to the LP before it.
   First the tools: padded lists, index sums, `emb` (where a position of the list with one element removed sits in the
   full list) and `unswap` (a vector with the removed element put back), sparse copies, counting of BASIC entries.
   Then one section per step (restored row, FixVariable, FixBounds, RowObj, basis counts), what TightenBoundsPS keeps
   and when it keeps the basis count, the boolean versions of the invariants with the two witnesses of the aggregation
   steps as coded since SoPlex commits 506310f (AggregationPS) and aa39d1d (MultiAggregationPS) and the algebra of their
   dual update, and the theorem that the invariants make the state an exact optimality certificate. *)
From Coq Require Import QArith Qabs List Bool Arith Lia Lqa Setoid.
From SV Require Import ListAux Vec LP Cert Cert_Proofs PostsolveModel.
Import ListNotations.
Local Open Scope Q_scope.

Lemma Qltb'_spec a b : BoolSpec (a < b) (b <= a) (Qltb' a b).
Proof. exact (Qltb_spec a b). Qed.

Lemma nth_upd_same {A} (d : A) l i v : nth i (upd d l i v) d = v.
Proof.
  revert l; induction i as [|i IH]; intros [|a l]; simpl; auto.
Qed.

Lemma nth_upd_other {A} (d : A) l i k v : i <> k -> nth k (upd d l i v) d = nth k l d.
Proof.
  revert l k; induction i as [|i IH]; intros [|a l] [|k] H; simpl; try congruence; auto.
  - destruct k; reflexivity.
  - rewrite IH by congruence. destruct k; reflexivity.
Qed.

Lemma length_upd {A} (d : A) l i v : (i < length l)%nat -> length (upd d l i v) = length l.
Proof. revert i; induction l as [|a l IH]; intros [|i] H; simpl in *; try lia; auto. rewrite IH; lia. Qed.

Lemma vnth_nth l i : vnth l i = nth i l 0.
Proof. revert i; induction l as [|a l IH]; intros [|i]; simpl; auto. Qed.

Lemma vnth_qupd_same l i v : vnth (qupd l i v) i = v.
Proof. rewrite vnth_nth. apply nth_upd_same. Qed.

Lemma vnth_qupd_other l i k v : i <> k -> vnth (qupd l i v) k = vnth l k.
Proof. intros H. rewrite !vnth_nth. now apply nth_upd_other. Qed.

Lemma snth_supd_same l i v : snth (supd l i v) i = v.
Proof. apply nth_upd_same. Qed.

Lemma snth_supd_other l i k v : i <> k -> snth (supd l i v) k = snth l k.
Proof. apply nth_upd_other. Qed.

Lemma vnth_app_l u v k : (k < length u)%nat -> vnth (u ++ v) k = vnth u k.
Proof. intros H. rewrite !vnth_nth. now apply app_nth1. Qed.

Lemma vnth_firstn n l j : (j < n)%nat -> vnth (firstn n l) j = vnth l j.
Proof. intros H. rewrite !vnth_nth. now apply nth_firstn. Qed.

(* sum of f over 0 .. n-1, with the LAST index split off: the shape the arguments about the element moved to the last
   position peel apart (Cert_Proofs.sumseq sums over an index list from its head, the shape of dot and osum;
   sumseq_seq relates the two) *)
Fixpoint sumn (n : nat) (f : nat -> Q) : Q := match n with O => 0 | S k => sumn k f + f k end.

Lemma sumn_ext n f g : (forall k, (k < n)%nat -> f k == g k) -> sumn n f == sumn n g.
Proof.
  induction n as [|n IH]; intros H; simpl; [reflexivity|].
  rewrite IH by (intros; apply H; lia). rewrite (H n) by lia. reflexivity.
Qed.

Lemma sumn_shift n f : sumn (S n) f == f 0%nat + sumn n (fun k => f (S k)).
Proof.
  induction n as [|n IH]; [simpl; ring|].
  change (sumn (S (S n)) f) with (sumn (S n) f + f (S n)). rewrite IH. simpl. ring.
Qed.

Lemma sumn_plus n f g : sumn n (fun k => f k + g k) == sumn n f + sumn n g.
Proof. induction n as [|n IH]; simpl; [ring|]. rewrite IH. ring. Qed.

Lemma sumn_scal n c f : sumn n (fun k => c * f k) == c * sumn n f.
Proof. induction n as [|n IH]; simpl; [ring|]. rewrite IH. ring. Qed.

Lemma sumn_zero n f : (forall k, (k < n)%nat -> f k == 0) -> sumn n f == 0.
Proof. intros H. rewrite (sumn_ext n f (fun _ => 0 * 0)) by (intros; rewrite H by assumption; ring). rewrite sumn_scal. ring. Qed.

Lemma sumn_nonneg n f : (forall k, (k < n)%nat -> 0 <= f k) -> 0 <= sumn n f.
Proof.
  induction n as [|n IH]; intros H; simpl; [lra|].
  assert (0 <= sumn n f) by (apply IH; intros; apply H; lia). assert (0 <= f n) by (apply H; lia). lra.
Qed.

Lemma sumn_change_one n f g j : (j < n)%nat -> (forall k, (k < n)%nat -> k <> j -> f k == g k) ->
  sumn n f == sumn n g + (f j - g j).
Proof.
  induction n as [|n IH]; intros Hj H; [lia|]. simpl.
  destruct (Nat.eq_dec j n) as [->|Hne].
  - rewrite (sumn_ext n f g) by (intros; apply H; lia). ring.
  - rewrite IH by (try lia; intros; apply H; lia). rewrite (H n) by lia. ring.
Qed.

Lemma sumn_extend n m f : (n <= m)%nat -> (forall k, (n <= k < m)%nat -> f k == 0) -> sumn m f == sumn n f.
Proof.
  intros Hle. induction Hle as [|m Hle IH]; intros H; [reflexivity|].
  simpl. rewrite IH by (intros; apply H; lia). rewrite (H m) by lia. ring.
Qed.

Lemma sumseq_seq f : forall len a, sumseq f (seq a len) == sumn len (fun k => f (a + k)%nat).
Proof.
  induction len as [|len IH]; intros a; [reflexivity|].
  simpl seq. simpl sumseq. rewrite IH. rewrite sumn_shift. rewrite Nat.add_0_r.
  apply Qplus_comp; [reflexivity|]. apply sumn_ext. intros k _. now rewrite Nat.add_succ_r.
Qed.

Lemma dot_sumn u x : dot u x == sumn (length u) (fun k => vnth u k * vnth x k).
Proof. rewrite dot_comm, dot_sumseq, sumseq_seq. apply sumn_ext. intros k _. apply Qmult_comm. Qed.

Lemma dot_sumn_ge u x n : (length u <= n)%nat -> dot u x == sumn n (fun k => vnth u k * vnth x k).
Proof.
  intros H. rewrite dot_sumn. symmetry. apply sumn_extend; auto.
  intros k Hk. rewrite vnth_beyond by lia. ring.
Qed.

Lemma dot_firstn u x n : (length u <= n)%nat -> dot u (firstn n x) == dot u x.
Proof.
  intros H. rewrite !dot_sumn. apply sumn_ext. intros k Hk. rewrite vnth_firstn by lia. reflexivity.
Qed.

(* entry j of A^T y is the product of column j of A with y: what holds of dot carries over to tmat_vec *)
Lemma tmat_vec_dot A j : forall y, vnth (tmat_vec A y) j == dot (map (fun a => vnth a j) A) y.
Proof.
  induction A as [|a A IH]; intros [|yi y]; simpl; try reflexivity.
  rewrite vnth_vadd, vnth_vscale, IH. ring.
Qed.

Lemma vnth_map {A} (f : A -> Q) d l i : f d = 0 -> vnth (map f l) i = f (nth i l d).
Proof. intros E. rewrite vnth_nth, <- E. apply map_nth. Qed.

Lemma tmat_vec_sumn A y j : vnth (tmat_vec A y) j == sumn (length A) (fun i => vnth y i * vnth (nth i A []) j).
Proof.
  rewrite tmat_vec_dot, dot_sumn, map_length. apply sumn_ext. intros i _.
  rewrite (vnth_map _ []) by reflexivity. apply Qmult_comm.
Qed.

Lemma tmat_vec_firstn A y m j : (length A <= m)%nat -> vnth (tmat_vec A (firstn m y)) j == vnth (tmat_vec A y) j.
Proof. intros H. rewrite !tmat_vec_dot. apply dot_firstn. now rewrite map_length. Qed.

(* position in the full list of the element at position k of the list with element i removed *)
Definition emb (i last k : nat) : nat := if Nat.eqb k i then last else k.

Lemma swap_remove_length {A} (d : A) i l : length (swap_remove d i l) = (length l - 1)%nat.
Proof. unfold swap_remove. now rewrite map_length, seq_length. Qed.

Lemma map_swap_remove {A B} (f : A -> B) d i l : map f (swap_remove d i l) = swap_remove (f d) i (map f l).
Proof.
  unfold swap_remove. rewrite map_map, map_length. apply map_ext. intros k. rewrite !map_nth. destruct (Nat.eqb k i); reflexivity.
Qed.

Lemma nth_swap_remove {A} (d : A) i l k : (k < length l - 1)%nat ->
  nth k (swap_remove d i l) d = nth (emb i (length l - 1) k) l d.
Proof. intros H. unfold swap_remove, emb. rewrite nth_map_seq by lia. destruct (Nat.eqb k i); reflexivity. Qed.

Lemma vnth_swap_remove i u k : (k < length u - 1)%nat -> vnth (swap_remove 0 i u) k = vnth u (emb i (length u - 1) k).
Proof. intros H. rewrite !vnth_nth. now apply nth_swap_remove. Qed.

(* the sum identity behind every "correct the index, then restore the removed element" *)
Lemma sumn_swap n1 (c x : nat -> Q) j v : (j <= n1)%nat ->
  sumn (S n1) (fun k => c k * (if Nat.eqb k j then v else if Nat.eqb k n1 then x j else x k))
  == sumn n1 (fun k => (if Nat.eqb k j then c n1 else c k) * x k) + c j * v.
Proof.
  intros Hj.
  set (F := fun k => c k * (if Nat.eqb k j then v else if Nat.eqb k n1 then x j else x k)).
  set (G := fun k => (if Nat.eqb k j then c n1 else c k) * x k).
  change (sumn n1 F + F n1 == sumn n1 G + c j * v).
  destruct (Nat.eq_dec j n1) as [->|Hne].
  - assert (E1 : sumn n1 F == sumn n1 G).
    { apply sumn_ext. intros k Hk. unfold F, G. destruct (Nat.eqb_spec k n1); [lia|]. reflexivity. }
    rewrite E1. unfold F. rewrite Nat.eqb_refl. reflexivity.
  - assert (E1 : sumn n1 F == sumn n1 G + (F j - G j)).
    { apply sumn_change_one; [lia|]. intros k Hk Hkj. unfold F, G.
      destruct (Nat.eqb_spec k j); [lia|]. destruct (Nat.eqb_spec k n1); [lia|]. reflexivity. }
    rewrite E1. unfold F, G. rewrite !Nat.eqb_refl.
    destruct (Nat.eqb_spec n1 j); [lia|]. ring.
Qed.

(* the element of position j moved back to the last position n1 and v written to position j: lists in general,
   vectors (unswap) and status lists (sunswap) *)
Lemma nth_unswap {A} (d : A) l j n1 v k :
  nth k (upd d (if Nat.eqb j n1 then l else upd d l n1 (nth j l d)) j v) d
  = if Nat.eqb k j then v else if Nat.eqb k n1 then nth j l d else nth k l d.
Proof.
  destruct (Nat.eqb_spec k j) as [->|Hkj]; [apply nth_upd_same|].
  rewrite nth_upd_other by congruence.
  destruct (Nat.eqb_spec j n1) as [->|Hjn].
  - destruct (Nat.eqb_spec k n1); [congruence|reflexivity].
  - destruct (Nat.eqb_spec k n1) as [->|Hkn]; [apply nth_upd_same|]. now rewrite nth_upd_other by congruence.
Qed.

Definition unswap (x : list Q) (j n1 : nat) (v : Q) : list Q :=
  qupd (if Nat.eqb j n1 then x else qupd x n1 (vnth x j)) j v.

Definition sunswap (l : list vstat) (j n1 : nat) (v : vstat) : list vstat :=
  supd (if Nat.eqb j n1 then l else supd l n1 (snth l j)) j v.

Lemma vnth_unswap x j n1 v k :
  vnth (unswap x j n1 v) k = if Nat.eqb k j then v else if Nat.eqb k n1 then vnth x j else vnth x k.
Proof. unfold unswap. rewrite !vnth_nth. apply nth_unswap. Qed.

(* a statement about every position of two restored vectors, from the restored position and the old positions *)
Lemma unswap_cases i n (G : nat -> Q -> Q -> Prop) s y v w : (i < n)%nat ->
  G i v w -> (forall k, (k < n - 1)%nat -> G (emb i (n - 1) k) (vnth s k) (vnth y k)) ->
  forall k, (k < n)%nat -> G k (vnth (unswap s i (n - 1) v) k) (vnth (unswap y i (n - 1) w) k).
Proof.
  intros Hi Gi H k Hk. rewrite !vnth_unswap.
  destruct (Nat.eqb_spec k i) as [->|Hki]; [exact Gi|].
  destruct (Nat.eqb_spec k (n - 1)) as [->|Hkn].
  - specialize (H i ltac:(lia)). unfold emb in H. now rewrite Nat.eqb_refl in H.
  - specialize (H k ltac:(lia)). unfold emb in H. now destruct (Nat.eqb_spec k i).
Qed.

Lemma dot_unswap u x j v : (j < length u)%nat ->
  dot u (unswap x j (length u - 1) v) == dot (swap_remove 0 j u) x + vnth u j * v.
Proof.
  intros Hj. rewrite !dot_sumn, swap_remove_length.
  destruct (length u) as [|n1] eqn:E; [lia|]. replace (S n1 - 1)%nat with n1 by lia.
  rewrite (sumn_ext (S n1) _ (fun k => vnth u k * (if Nat.eqb k j then v else if Nat.eqb k n1 then vnth x j else vnth x k)))
    by (intros; rewrite vnth_unswap; reflexivity).
  rewrite (sumn_swap n1 (vnth u) (vnth x) j v) by lia.
  apply Qplus_comp; [|reflexivity].
  apply sumn_ext. intros k Hk. rewrite vnth_swap_remove by (rewrite E; lia). rewrite E.
  replace (S n1 - 1)%nat with n1 by lia. unfold emb. destruct (Nat.eqb k j); reflexivity.
Qed.

Lemma tmat_vec_unswap A y i v j : (i < length A)%nat ->
  vnth (tmat_vec A (unswap y i (length A - 1) v)) j == vnth (tmat_vec (swap_remove [] i A) y) j + v * vnth (nth i A []) j.
Proof.
  intros Hi. rewrite !tmat_vec_dot, (map_swap_remove (fun a => vnth a j)), <- (map_length (fun a => vnth a j) A).
  rewrite dot_unswap, (vnth_map _ []) by (rewrite ?map_length; auto). now rewrite Qmult_comm.
Qed.

(* a sparse copy lists the pairs (k, f k) with f k <> 0 in increasing order of k *)
Lemma sp_of_eq f n : sp_of f n = map (fun k => (k, f k)) (filter (fun k => negb (Qeq_bool (f k) 0)) (seq 0 n)).
Proof. apply flat_map_filter_map. Qed.

Lemma sdot_pairs f l x : sdot (map (fun k => (k, f k)) l) x = sumseq (fun k => f k * vnth x k) l.
Proof. induction l as [|k l IH]; simpl; congruence. Qed.

Lemma sget_pairs f l i : sget (map (fun k => (k, f k)) l) i = if existsb (Nat.eqb i) l then f i else 0.
Proof.
  induction l as [|k l IH]; simpl; [reflexivity|]. rewrite (Nat.eqb_sym i k).
  destruct (Nat.eqb_spec k i) as [->|]; simpl; [reflexivity | exact IH].
Qed.

Lemma sdot_sp_of f n x : sdot (sp_of f n) x == sumn n (fun k => f k * vnth x k).
Proof.
  rewrite sp_of_eq, sdot_pairs, sumseq_filter, sumseq_seq; [reflexivity|].
  intros k E. apply negb_false_iff, Qeq_bool_iff in E. rewrite E. ring.
Qed.

Lemma sget_sp_of f n i : (i < n)%nat -> sget (sp_of f n) i == f i.
Proof.
  intros H. rewrite sp_of_eq, sget_pairs. destruct (existsb _ _) eqn:E; [reflexivity|].
  (* i is below n, so it was filtered out *)
  destruct (Qeq_bool (f i) 0) eqn:Z; [apply Qeq_bool_iff in Z; now rewrite Z|].
  exfalso. apply not_true_iff_false in E. apply E, existsb_exists. exists i.
  split; [apply filter_In; split; [apply in_seq; lia | now rewrite Z] | apply Nat.eqb_refl].
Qed.

(* skipping an index is summing against the vector with that entry zeroed *)
Lemma sdot_skip_sdot v s x : sdot_skip v s x == sdot v (qupd x s 0).
Proof.
  induction v as [|[k a] v IH]; simpl; [reflexivity|]. rewrite IH.
  destruct (Nat.eqb_spec k s) as [->|H]; [rewrite vnth_qupd_same | rewrite vnth_qupd_other by congruence]; ring.
Qed.

Lemma vnth_sadd_notin u c : forall s k, ~ In k (map fst u) -> vnth (sadd u c s) k = vnth s k.
Proof.
  induction u as [|[i a] u IH]; intros s k H; simpl; auto.
  simpl in H. rewrite IH by tauto. apply vnth_qupd_other. tauto.
Qed.

(* entry k after the update: what the sparse vector holds at k, read off with the unit vector *)
Lemma vnth_sadd u c : forall s k, vnth (sadd u c s) k == vnth s k + c * sdot u (qupd [] k 1).
Proof.
  induction u as [|[i a] u IH]; intros s k; simpl; [ring|]. rewrite IH.
  destruct (Nat.eq_dec i k) as [->|H].
  - rewrite !vnth_qupd_same. ring.
  - rewrite !vnth_qupd_other, vnth_nil by congruence. ring.
Qed.

Lemma vnth_sadd_sp n f c s k : (k < n)%nat -> vnth (sadd (sp_of f n) c s) k == vnth s k + f k * c.
Proof.
  intros H. rewrite vnth_sadd, sdot_sp_of, (sumn_change_one n _ (fun _ => 0) k H).
  - rewrite sumn_zero, vnth_qupd_same by reflexivity. ring.
  - intros i _ Hi. cbv beta. rewrite vnth_qupd_other, vnth_nil by congruence. ring.
Qed.

Lemma activity_sumn P i x : wf_lp P -> (i < nrows P)%nat -> activity P i x == sumn (ncols P) (fun k => coef P i k * vnth x k).
Proof. intros W Hi. unfold activity. apply dot_sumn_ge. rewrite W by auto. lia. Qed.

(* the activity of a row at a point with x_j put back *)
Lemma activity_unswap P l j x v : wf_lp P -> (l < nrows P)%nat -> (j < ncols P)%nat ->
  activity P l (unswap x j (ncols P - 1) v) == dot (swap_remove 0 j (r_coef (rowi P l))) x + coef P l j * v.
Proof. intros W Hl Hj. unfold activity. rewrite <- (W l Hl). apply dot_unswap. rewrite (W l Hl). exact Hj. Qed.

Lemma tvec_sumn P y j : vnth (tmat_vec (matrix P) y) j == sumn (nrows P) (fun i => vnth y i * coef P i j).
Proof. rewrite tmat_vec_sumn, matrix_length. apply sumn_ext. intros i _. rewrite nth_matrix. reflexivity. Qed.

Lemma matrix_remove_row P i : matrix (red_remove_row P i) = swap_remove [] i (matrix P).
Proof. apply (map_swap_remove r_coef drow). Qed.

Lemma nrows_remove_row P i : nrows (red_remove_row P i) = (nrows P - 1)%nat.
Proof. unfold nrows, red_remove_row; simpl. apply swap_remove_length. Qed.

Lemma rowi_remove_row P i k : (k < nrows P - 1)%nat -> rowi (red_remove_row P i) k = rowi P (emb i (nrows P - 1) k).
Proof. intros H. unfold rowi, red_remove_row; simpl. now apply nth_swap_remove. Qed.

Lemma prim_ident_fields P t t' : sx t' = sx t -> ss t' = ss t -> prim_ident P t -> prim_ident P t'.
Proof. intros Ex Es H k Hk. unfold gs. rewrite Es, Ex. exact (H k Hk). Qed.

Lemma dual_ident_fields P t t' : sy t' = sy t -> sr t' = sr t -> dual_ident P t -> dual_ident P t'.
Proof. intros Ey Er H k Hk. unfold gr. rewrite Er, Ey. exact (H k Hk). Qed.

Lemma cntb_ext l l' n : (forall k, (k < n)%nat -> snth l k = snth l' k) -> cntb l n = cntb l' n.
Proof.
  induction n as [|n IH]; intros H; simpl; auto. rewrite IH by (intros; apply H; lia). rewrite (H n) by lia. reflexivity.
Qed.

(* what one status contributes to the count of BASIC entries *)
Definition b1 (v : vstat) : nat := if is_basic v then 1%nat else 0%nat.

Lemma cntb_supd_beyond l j v n : (n <= j)%nat -> cntb (supd l j v) n = cntb l n.
Proof. intros H. apply cntb_ext. intros k Hk. apply snth_supd_other. lia. Qed.

Lemma cntb_supd l j v n : (j < n)%nat -> (cntb (supd l j v) n + b1 (snth l j) = cntb l n + b1 v)%nat.
Proof.
  induction n as [|n IH]; intros Hj; [lia|]. simpl cntb. unfold b1 in *.
  destruct (Nat.eq_dec j n) as [->|Hne].
  - rewrite cntb_supd_beyond, snth_supd_same by lia. lia.
  - rewrite snth_supd_other by exact Hne. specialize (IH ltac:(lia)). lia.
Qed.

(* counting after the index correction: positions < n1 other than j are unchanged, j gets v, n1 gets the old j *)
Lemma cntb_sunswap l j n1 v : (j <= n1)%nat -> cntb (sunswap l j n1 v) (S n1) = (cntb l n1 + b1 v)%nat.
Proof.
  intros Hj. unfold sunswap. destruct (Nat.eqb_spec j n1) as [->|Hne].
  - simpl cntb. rewrite cntb_supd_beyond, snth_supd_same by lia. reflexivity.
  - pose proof (cntb_supd (supd l n1 (snth l j)) j v (S n1) ltac:(lia)) as E.
    rewrite snth_supd_other in E by lia.
    change (cntb (supd l n1 (snth l j)) (S n1))
      with (cntb (supd l n1 (snth l j)) n1 + b1 (snth (supd l n1 (snth l j)) n1))%nat in E.
    rewrite (cntb_supd_beyond l n1), snth_supd_same in E by lia. lia.
Qed.

Lemma in_bounds_eq lo up v w : v == w -> in_bounds lo up v -> in_bounds lo up w.
Proof. intros E [A B]. rewrite E in A, B. now split. Qed.

Lemma cs_prop_eq k k' lo up v w : k == k' -> v == w -> cs_prop k lo up v -> cs_prop k' lo up w.
Proof. intros Ek Ev H. apply cs_ok_spec. apply cs_ok_spec in H. exact (cs_ok_ext _ _ _ _ _ _ Ek Ev H). Qed.

Lemma cs_prop_zero lo up v : cs_prop 0 lo up v.
Proof. split; intros H; lra. Qed.

Lemma in_bounds_opp lo up v : in_bounds (option_map Qopp up) (option_map Qopp lo) v -> in_bounds lo up (- v).
Proof. unfold in_bounds. destruct lo, up; simpl; intros [A B]; split; auto; lra. Qed.

Lemma in_bounds_shift lo up d v : in_bounds (shift_side lo d) (shift_side up d) v -> in_bounds lo up (v + d).
Proof. unfold in_bounds. destruct lo, up; simpl; intros [A B]; split; auto; lra. Qed.

Lemma cs_prop_shift k lo up d v : cs_prop k (shift_side lo d) (shift_side up d) v -> cs_prop k lo up (v + d).
Proof.
  unfold cs_prop. intros [A B]. split; intros Hk.
  - specialize (A Hk). destruct lo; simpl in *; [lra|exact A].
  - specialize (B Hk). destruct up; simpl in *; [lra|exact B].
Qed.

(* a multiplier can only have the sign of a side that exists *)
Lemma cs_prop_no_lo k up v : cs_prop k None up v -> k <= 0.
Proof. intros [A _]. destruct (Qlt_le_dec 0 k); [exfalso; auto|assumption]. Qed.
Lemma cs_prop_no_up k lo v : cs_prop k lo None v -> 0 <= k.
Proof. intros [_ B]. destruct (Qlt_le_dec k 0); [exfalso; auto|assumption]. Qed.

(* t with row i put back: slack v, multiplier yv, status BASIC; the row that sat at i returns to the last position oi *)
Definition restore_row (i oi : nat) (v yv : Q) (t : st) : st :=
  mkst (sx t) (unswap (sy t) i oi yv) (unswap (ss t) i oi v) (sr t) (scs t) (sunswap (srs t) i oi BASIC).

Lemma exec_FreeConstraint_eq i oi row ro t :
  exec_FreeConstraint i oi row ro t = restore_row i oi (sdot row (sx t)) ro t.
Proof.
  destruct t. unfold exec_FreeConstraint, restore_row, fix_row_idx, unswap, sunswap.
  destruct (Nat.eqb i oi); reflexivity.
Qed.

Section RestoreRow.
  Variable P : lp.
  Variable i : nat.
  Hypothesis Hi : (i < nrows P)%nat.
  Let P' := red_remove_row P i.
  Let m1 := (nrows P - 1)%nat.

  (* a property of row k, its slack and its multiplier carries over from the reduced LP to the LP with row i back *)
  Lemma restore_row_rows (G : row -> Q -> Q -> Prop) v yv t : G (rowi P i) v yv ->
    (forall k, (k < nrows P')%nat -> G (rowi P' k) (gs t k) (gy t k)) ->
    forall k, (k < nrows P)%nat -> G (rowi P k) (gs (restore_row i m1 v yv t) k) (gy (restore_row i m1 v yv t) k).
  Proof.
    intros Gi H. apply (unswap_cases i (nrows P) (fun k => G (rowi P k))); [exact Hi | exact Gi |].
    intros k Hk. rewrite <- rowi_remove_row by exact Hk. apply H. unfold P'. now rewrite nrows_remove_row.
  Qed.

  Lemma restore_row_prim v yv t : v == activity P i (sx t) -> prim_ident P' t -> prim_ident P (restore_row i m1 v yv t).
  Proof. intros Hv H. exact (restore_row_rows (fun r a _ => a == dot (r_coef r) (sx t)) v yv t Hv H). Qed.

  (* the multiplier yv of the restored row enters every reduced cost with the row's coefficient *)
  Lemma restore_row_dual yv t t' : dual_ident P' t -> sy t' = unswap (sy t) i m1 yv ->
    (forall k, (k < ncols P)%nat -> gr t' k == gr t k - yv * coef P i k) -> dual_ident P t'.
  Proof.
    intros H Ey Hr k Hk. rewrite (Hr k Hk), (H k Hk), Ey.
    unfold m1. rewrite <- matrix_length, tmat_vec_unswap by (rewrite matrix_length; exact Hi).
    unfold P'. rewrite matrix_remove_row, nth_matrix. change (colj (red_remove_row P i) k) with (colj P k).
    unfold coef. ring.
  Qed.

  Lemma restore_row_count v yv t : basis_count P' t -> basis_count P (restore_row i m1 v yv t).
  Proof.
    unfold basis_count, restore_row; cbn [scs srs]. unfold P'. rewrite nrows_remove_row. fold m1.
    change (ncols (red_remove_row P i)) with (ncols P). intros H.
    replace (nrows P) with (S m1) by (unfold m1; lia).
    rewrite cntb_sunswap by (unfold m1; lia). change (b1 BASIC) with 1%nat. lia.
  Qed.
End RestoreRow.

Lemma sdot_sp_row P i x : wf_lp P -> (i < nrows P)%nat -> sdot (sp_row P i) x == activity P i x.
Proof. intros W Hi. unfold sp_row. rewrite sdot_sp_of, activity_sumn by auto. reflexivity. Qed.

(* FreeConstraintPS and EmptyConstraintPS restore a row from what was recorded of it; exec_EmptyConstraint is
   exec_FreeConstraint with the empty row, by computation *)
Lemma restored_row_identities P i row t : (i < nrows P)%nat -> sdot row (sx t) == activity P i (sx t) ->
  prim_ident (red_remove_row P i) t /\ dual_ident (red_remove_row P i) t ->
  let t' := exec_FreeConstraint i (nrows P - 1) row 0 t in prim_ident P t' /\ dual_ident P t'.
Proof.
  intros Hi Hv [H1 H2] t'. unfold t'. rewrite exec_FreeConstraint_eq. split.
  - now apply restore_row_prim.
  - apply (restore_row_dual P i Hi 0 t); auto. intros; unfold gr, restore_row; cbn [sr]; ring.
Qed.

Lemma restored_row_feasibility_and_signs P i row t : (i < nrows P)%nat ->
  in_bounds (r_lhs (rowi P i)) (r_rhs (rowi P i)) (sdot row (sx t)) ->
  prim_feas (red_remove_row P i) t /\ dual_signs (red_remove_row P i) t ->
  let t' := exec_FreeConstraint i (nrows P - 1) row 0 t in prim_feas P t' /\ dual_signs P t'.
Proof.
  intros Hi Hb [[Fc Fr] [Sc Sr]] t'. unfold t'. rewrite exec_FreeConstraint_eq. split; (split; [assumption|]).
  - exact (restore_row_rows P i Hi (fun r a _ => in_bounds (r_lhs r) (r_rhs r) a) _ 0 t Hb Fr).
  - exact (restore_row_rows P i Hi (fun r a b => cs_prop b (r_lhs r) (r_rhs r) a) _ 0 t (cs_prop_zero _ _ _) Sr).
Qed.

Lemma restored_row_basis_count P i row ro t : (i < nrows P)%nat ->
  basis_count (red_remove_row P i) t -> basis_count P (exec_FreeConstraint i (nrows P - 1) row ro t).
Proof. intros Hi H. rewrite exec_FreeConstraint_eq. now apply restore_row_count. Qed.

(* EmptyConstraintPS: row i has no entries and 0 lies between its sides (otherwise the verdict is INFEASIBLE) *)
Definition empty_row (P : lp) (i : nat) : Prop := forall j, coef P i j == 0.

Lemma empty_row_activity P i x : empty_row P i -> 0 == activity P i x.
Proof. intros He. unfold activity. rewrite dot_sumn, sumn_zero; [reflexivity|]. intros k _. cbv beta. rewrite (He k). ring. Qed.

(* the non-basic status exec_FixVariable gives the restored column *)
Definition fixvar_status (c : cmps) (val lower upper : Q) : vstat :=
  if Qeq_bool lower upper then FIXED
  else if eqrel_e c val lower then ON_LOWER else if eqrel_e c val upper then ON_UPPER else ZERO.

Lemma fixvar_status_nonbasic c val lower upper : is_basic (fixvar_status c val lower upper) = false.
Proof. unfold fixvar_status. destruct (Qeq_bool lower upper), (eqrel_e c val lower), (eqrel_e c val upper); reflexivity. Qed.

Lemma exec_FixVariable_eq c j oj val obj lower upper col t :
  exec_FixVariable c j oj val obj lower upper true col t =
  mkst (unswap (sx t) j oj val) (sy t) (sadd col val (ss t)) (unswap (sr t) j oj (obj - sdot col (sy t)))
       (sunswap (scs t) j oj (fixvar_status c val lower upper)) (srs t).
Proof.
  destruct t. unfold exec_FixVariable, fixvar_status, fix_col_idx, unswap, sunswap.
  destruct (Nat.eqb j oj), (Qeq_bool lower upper); reflexivity.
Qed.

Section FixVariable.
  Variable P : lp.
  Variable j : nat.
  Variable val : Q.
  Hypothesis W : wf_lp P.
  Hypothesis Hj : (j < ncols P)%nat.
  Let P' := red_FixVariable P j val.
  Let n1 := (ncols P - 1)%nat.

  Lemma ncols_FixVariable : ncols P' = n1.
  Proof. unfold P', ncols, red_FixVariable; cbn [cols]. apply swap_remove_length. Qed.

  Lemma nrows_FixVariable : nrows P' = nrows P.
  Proof. unfold P', nrows, red_FixVariable; cbn [rows]. apply map_length. Qed.

  Lemma colj_FixVariable k : (k < n1)%nat -> colj P' k = colj P (emb j n1 k).
  Proof. intros H. unfold P', colj, red_FixVariable; cbn [cols]. now apply nth_swap_remove. Qed.

  Lemma rowi_FixVariable i :
    rowi P' i = {| r_lhs := shift_side (r_lhs (rowi P i)) (coef P i j * val);
                   r_coef := swap_remove 0 j (r_coef (rowi P i));
                   r_rhs := shift_side (r_rhs (rowi P i)) (coef P i j * val) |}.
  Proof.
    unfold P', rowi, red_FixVariable; cbn [rows].
    set (f := fun rw => {| r_lhs := shift_side (r_lhs rw) (vnth (r_coef rw) j * val);
                           r_coef := swap_remove 0 j (r_coef rw);
                           r_rhs := shift_side (r_rhs rw) (vnth (r_coef rw) j * val) |}).
    change drow with (f drow) at 1. rewrite map_nth. reflexivity.
  Qed.

  Lemma coef_FixVariable i k : (i < nrows P)%nat -> (k < n1)%nat -> coef P' i k = coef P i (emb j n1 k).
  Proof.
    intros Hi Hk. unfold coef at 1. rewrite rowi_FixVariable. cbn [r_coef].
    rewrite vnth_swap_remove by (rewrite W by auto; exact Hk). rewrite W by auto. reflexivity.
  Qed.

  Variable c : cmps.
  Variables lower upper : Q.
  Let exec t := exec_FixVariable c j n1 val (c_obj (colj P j)) lower upper true (sp_col P j) t.

  Lemma gs_FixVariable t i : (i < nrows P)%nat -> gs (exec t) i == gs t i + coef P i j * val.
  Proof. intros Hi. unfold exec. rewrite exec_FixVariable_eq. unfold gs, sp_col; cbn [ss]. now rewrite vnth_sadd_sp. Qed.

  (* a property of column k, its value and its reduced cost carries over to the LP with column j back *)
  Lemma FixVariable_cols (G : col -> Q -> Q -> Prop) t :
    G (colj P j) val (c_obj (colj P j) - sdot (sp_col P j) (sy t)) ->
    (forall k, (k < ncols P')%nat -> G (colj P' k) (gx t k) (gr t k)) ->
    forall k, (k < ncols P)%nat -> G (colj P k) (gx (exec t) k) (gr (exec t) k).
  Proof.
    intros Gj H. unfold exec. rewrite exec_FixVariable_eq. unfold gx, gr; cbn [sx sr sy].
    apply (unswap_cases j (ncols P) (fun k => G (colj P k))); [exact Hj | exact Gj |].
    intros k Hk. rewrite <- colj_FixVariable by exact Hk. apply H. now rewrite ncols_FixVariable.
  Qed.

  Lemma FixVariable_prim t : prim_ident P' t -> prim_ident P (exec t).
  Proof.
    intros H i Hi. unfold prim_ident in H. rewrite nrows_FixVariable in H.
    rewrite gs_FixVariable, (H i Hi) by exact Hi. unfold exec. rewrite exec_FixVariable_eq; cbn [sx]. unfold n1. rewrite activity_unswap by auto.
    unfold activity. rewrite rowi_FixVariable. reflexivity.
  Qed.

  Lemma FixVariable_dual t : dual_ident P' t -> dual_ident P (exec t).
  Proof.
    intros H k Hk. unfold dual_ident in H. rewrite ncols_FixVariable in H. rewrite tvec_sumn. revert k Hk. unfold exec. rewrite exec_FixVariable_eq. unfold gr; cbn [sr sy].
    apply (unswap_cases j (ncols P) (fun k rk _ => rk == c_obj (colj P k) - sumn (nrows P) (fun i => vnth (sy t) i * coef P i k))
             (sr t) (sr t) _ 0); [exact Hj | |].
    - unfold sp_col. rewrite sdot_sp_of. apply Qplus_comp; [reflexivity|]. apply Qopp_comp.
      apply sumn_ext. intros i _. ring.
    - intros k Hk. rewrite (H k Hk), tvec_sumn, nrows_FixVariable, colj_FixVariable by exact Hk.
      apply Qplus_comp; [reflexivity|]. apply Qopp_comp. apply sumn_ext. intros i Hi.
      rewrite coef_FixVariable by auto. reflexivity.
  Qed.

  Lemma FixVariable_feas t : in_bounds (c_lo (colj P j)) (c_up (colj P j)) val -> prim_feas P' t -> prim_feas P (exec t).
  Proof.
    intros Hv [Hc Hr]. rewrite nrows_FixVariable in Hr. split.
    - exact (FixVariable_cols (fun cl a _ => in_bounds (c_lo cl) (c_up cl) a) t Hv Hc).
    - intros i Hi. specialize (Hr i Hi). rewrite rowi_FixVariable in Hr. cbn [r_lhs r_rhs] in Hr.
      apply in_bounds_shift in Hr. refine (in_bounds_eq _ _ _ _ _ Hr). symmetry. now apply gs_FixVariable.
  Qed.

  (* when may column j be fixed at val: its bounds coincide with val, or the column is empty and val is the bound its
     cost pushes it to (removeEmpty) *)
  Definition fix_justified : Prop :=
    (exists l u, c_lo (colj P j) = Some l /\ c_up (colj P j) = Some u /\ l == val /\ u == val) \/
    ((forall i, coef P i j == 0) /\ cs_prop (c_obj (colj P j)) (c_lo (colj P j)) (c_up (colj P j)) val).

  Lemma FixVariable_signs t : fix_justified -> dual_signs P' t -> dual_signs P (exec t).
  Proof.
    intros Hjust [Hc Hr]. rewrite nrows_FixVariable in Hr. split.
    - apply (FixVariable_cols (fun cl a b => cs_prop b (c_lo cl) (c_up cl) a) t); [|exact Hc].
      destruct Hjust as [(l & u & El & Eu & E1 & E2)|[Hz Hcs]].
      + rewrite El, Eu. split; intros _; assumption.
      + refine (cs_prop_eq _ _ _ _ _ _ _ (Qeq_refl _) Hcs). unfold sp_col. rewrite sdot_sp_of, sumn_zero; [ring|].
        intros i _. cbv beta. pose proof (Hz i) as Ez. rewrite Ez. ring.
    - intros i Hi. specialize (Hr i Hi). rewrite rowi_FixVariable in Hr. cbn [r_lhs r_rhs] in Hr. apply cs_prop_shift in Hr.
      refine (cs_prop_eq _ _ _ _ _ _ _ _ Hr); [unfold exec; now rewrite exec_FixVariable_eq | symmetry; now apply gs_FixVariable].
  Qed.

  Lemma FixVariable_count t : basis_count P' t -> basis_count P (exec t).
  Proof.
    unfold basis_count, exec. rewrite exec_FixVariable_eq; cbn [scs srs].
    rewrite ncols_FixVariable, nrows_FixVariable. intros H.
    replace (ncols P) with (S n1) by (unfold n1; lia).
    rewrite cntb_sunswap by (unfold n1; lia). unfold b1. rewrite fixvar_status_nonbasic. lia.
  Qed.

  Lemma objvec_FixVariable : objvec P' = swap_remove 0 j (objvec P).
  Proof. apply (map_swap_remove c_obj dcol). Qed.

  Lemma FixVariable_objective t : objective P (sx (exec t)) == objective P' (sx t).
  Proof.
    unfold exec. rewrite exec_FixVariable_eq; cbn [sx]. unfold objective. rewrite objvec_FixVariable.
    change (offset P') with (offset P + c_obj (colj P j) * val). unfold n1.
    replace (ncols P) with (length (objvec P)) by (unfold objvec, ncols; apply map_length).
    rewrite dot_unswap by (unfold objvec; rewrite map_length; exact Hj).
    rewrite nth_objvec. ring.
  Qed.
End FixVariable.

(* FixBoundsPS: the bounds of column j had been collapsed to val (dominated / weakly dominated column, empty column, duplicate
   column); only the status of the column is restored *)
Section FixBounds.
  Variable P : lp.
  Variable j : nat.
  Variable val : Q.
  Hypothesis Hj : (j < ncols P)%nat.
  Let P' := red_FixBounds P j val.

  Lemma ncols_FixBounds : ncols P' = ncols P.
  Proof. unfold P', ncols, red_FixBounds; cbn [cols]. apply length_upd. exact Hj. Qed.

  Lemma colj_FixBounds k : colj P' k = if Nat.eqb k j then {| c_obj := c_obj (colj P j); c_lo := Some val; c_up := Some val |} else colj P k.
  Proof.
    unfold P', colj, red_FixBounds; cbn [cols]. destruct (Nat.eqb_spec k j) as [Ekj|H]; [subst k|].
    - apply nth_upd_same.
    - apply nth_upd_other. congruence.
  Qed.

  Lemma c_obj_FixBounds k : c_obj (colj P' k) = c_obj (colj P k).
  Proof. rewrite colj_FixBounds. destruct (Nat.eqb_spec k j) as [Ekj|]; [subst k|]; reflexivity. Qed.

  Variable s : vstat.
  Let exec t := exec_FixBounds j s t.

  Lemma FixBounds_identities t : prim_ident P' t /\ dual_ident P' t -> prim_ident P (exec t) /\ dual_ident P (exec t).
  Proof.
    intros [H1 H2]. split.
    - intros i Hi. apply (H1 i Hi).
    - intros k Hk. unfold dual_ident in H2. rewrite ncols_FixBounds in H2.
      specialize (H2 k Hk). rewrite c_obj_FixBounds in H2. exact H2.
  Qed.

  (* a property of a column, its value and its reduced cost carries over once it holds for column j with its own bounds *)
  Lemma FixBounds_cols (G : col -> Q -> Q -> Prop) t :
    (G {| c_obj := c_obj (colj P j); c_lo := Some val; c_up := Some val |} (gx t j) (gr t j) -> G (colj P j) (gx t j) (gr t j)) ->
    (forall k, (k < ncols P')%nat -> G (colj P' k) (gx t k) (gr t k)) ->
    forall k, (k < ncols P)%nat -> G (colj P k) (gx (exec t) k) (gr (exec t) k).
  Proof.
    intros Gj H k Hk. rewrite <- ncols_FixBounds in Hk. specialize (H k Hk). rewrite colj_FixBounds in H.
    change (G (colj P k) (gx t k) (gr t k)). destruct (Nat.eqb_spec k j) as [E|]; [subst k|]; auto.
  Qed.

  (* the value the column was fixed at lies within its original bounds *)
  Lemma FixBounds_feas t : in_bounds (c_lo (colj P j)) (c_up (colj P j)) val -> prim_feas P' t -> prim_feas P (exec t).
  Proof.
    intros Hv [Hc Hr]. split; [|exact Hr].
    apply (FixBounds_cols (fun cl a _ => in_bounds (c_lo cl) (c_up cl) a) t); [|exact Hc].
    intros [A B]. simpl in A, B. refine (in_bounds_eq _ _ _ _ _ Hv). lra.
  Qed.

  (* signs: the reductions that use FixBoundsPS fix a column at the bound its reduced cost is forced to have a sign
     for.  The dominated-column case: cost < 0 and every row entry pushes the reduced cost further down *)
  Definition dominated_up : Prop :=
    c_obj (colj P j) < 0 /\ c_up (colj P j) = Some val /\
    forall i, (i < nrows P)%nat -> (0 < coef P i j -> r_rhs (rowi P i) = None) /\ (coef P i j < 0 -> r_lhs (rowi P i) = None).
  Definition dominated_lo : Prop :=
    0 < c_obj (colj P j) /\ c_lo (colj P j) = Some val /\
    forall i, (i < nrows P)%nat -> (0 < coef P i j -> r_lhs (rowi P i) = None) /\ (coef P i j < 0 -> r_rhs (rowi P i) = None).

  (* a row without the side that a multiplier of one sign needs has a multiplier of the other sign *)
  Lemma dominated_term t i a : dual_signs P' t -> (i < nrows P)%nat ->
    (0 < a -> r_rhs (rowi P i) = None) -> (a < 0 -> r_lhs (rowi P i) = None) -> 0 <= gy t i * a.
  Proof.
    intros [_ Hr] Hi R1 R2. specialize (Hr i Hi). change (rowi P' i) with (rowi P i) in Hr.
    destruct (Qlt_le_dec 0 a) as [Hp|Hnp]; [|destruct (Qlt_le_dec a 0) as [Hn|Hz]].
    - rewrite (R1 Hp) in Hr. apply cs_prop_no_up in Hr. nra.
    - rewrite (R2 Hn) in Hr. apply cs_prop_no_lo in Hr. nra.
    - assert (a == 0) by lra. nra.
  Qed.

  Lemma FixBounds_signs t : dominated_up \/ dominated_lo -> prim_feas P' t -> dual_ident P' t -> dual_signs P' t -> dual_signs P (exec t).
  Proof.
    intros Hdom [Hfc _] Hid Hs. pose proof Hs as [Hc Hr]. split; [|exact Hr].
    apply (FixBounds_cols (fun cl a b => cs_prop b (c_lo cl) (c_up cl) a) t); [intros _ | exact Hc].
    assert (Hj' : (j < ncols P')%nat) by (rewrite ncols_FixBounds; exact Hj).
    specialize (Hfc j Hj'). rewrite colj_FixBounds, Nat.eqb_refl in Hfc. destruct Hfc as [A B]. simpl in A, B.
    specialize (Hid j Hj'). rewrite c_obj_FixBounds in Hid. unfold gx, gr in *.
    change (matrix P') with (matrix P) in Hid. rewrite tvec_sumn in Hid.
    destruct Hdom as [(Hcost & Hup & Hrows)|(Hcost & Hlo & Hrows)].
    - assert (0 <= sumn (nrows P) (fun i => vnth (sy t) i * coef P i j))
        by (apply sumn_nonneg; intros i Hi; destruct (Hrows i Hi); now apply dominated_term).
      split; intros Hk0; [lra|]. rewrite Hup. lra.
    - assert (N : 0 <= sumn (nrows P) (fun i => vnth (sy t) i * - coef P i j)).
      { apply sumn_nonneg. intros i Hi. destruct (Hrows i Hi) as [R1 R2].
        apply dominated_term; auto; intros; [apply R2 | apply R1]; lra. }
      rewrite (sumn_ext _ _ (fun i => (-1) * (vnth (sy t) i * coef P i j))), sumn_scal in N by (intros; ring).
      split; intros Hk0; [|lra]. rewrite Hlo. lra.
  Qed.

  (* the column is non-basic before (FixVariablePS has just marked it) and after *)
  Lemma FixBounds_count t : is_basic (gcs t j) = is_basic s -> basis_count P' t -> basis_count P (exec t).
  Proof.
    unfold basis_count, exec, exec_FixBounds, set_cs; cbn [scs srs]. rewrite ncols_FixBounds.
    change (nrows P') with (nrows P). intros B H.
    pose proof (cntb_supd (scs t) j s (ncols P) Hj) as E. unfold b1, gcs in *. rewrite B in E. lia.
  Qed.
End FixBounds.

(* RowObjPS: the slack column that carried the row objective is removed again *)
Lemma dot_app_one u a x : dot (u ++ [a]) x == dot u x + a * vnth x (length u).
Proof.
  revert x; induction u as [|b u IH]; intros [|c x]; simpl; try ring.
  rewrite IH. ring.
Qed.

Section RowObj.
  Variable P : lp.
  Variable i : nat.
  Variable w : Q.
  Hypothesis W : wf_lp P.
  Hypothesis Hi : (i < nrows P)%nat.
  Let P' := red_RowObj P i w.
  Let n := ncols P.

  Lemma nrows_RowObj : nrows P' = nrows P.
  Proof. unfold P', nrows, red_RowObj; cbn [rows]. now rewrite map_length, seq_length. Qed.

  Lemma ncols_RowObj : ncols P' = S n.
  Proof. unfold P', ncols, red_RowObj; cbn [cols]. rewrite app_length. simpl. unfold n, ncols. lia. Qed.

  Lemma colj_RowObj j : (j < n)%nat -> colj P' j = colj P j.
  Proof. intros H. unfold P', colj, red_RowObj; cbn [cols]. now apply app_nth1. Qed.

  Lemma colj_RowObj_slack : colj P' n = {| c_obj := w; c_lo := option_map Qopp (r_rhs (rowi P i)); c_up := option_map Qopp (r_lhs (rowi P i)) |}.
  Proof. unfold P', colj, red_RowObj; cbn [cols]. rewrite app_nth2 by (unfold n, ncols; lia). unfold n, ncols. now rewrite Nat.sub_diag. Qed.

  Lemma rowi_RowObj k : (k < nrows P)%nat ->
    rowi P' k = if Nat.eqb k i
                then {| r_lhs := Some 0; r_coef := r_coef (rowi P k) ++ [1]; r_rhs := Some 0 |}
                else {| r_lhs := r_lhs (rowi P k); r_coef := r_coef (rowi P k) ++ [0]; r_rhs := r_rhs (rowi P k) |}.
  Proof. intros H. unfold P', rowi at 1, red_RowObj; cbn [rows]. now rewrite nth_map_seq by exact H. Qed.

  Lemma activity_RowObj k x : (k < nrows P)%nat ->
    activity P' k x == activity P k x + (if Nat.eqb k i then 1 else 0) * vnth x n.
  Proof.
    intros H. unfold activity. rewrite rowi_RowObj by exact H.
    destruct (Nat.eqb k i); cbn [r_coef]; rewrite dot_app_one, (W k H); reflexivity.
  Qed.

  Lemma coef_RowObj k j : (k < nrows P)%nat -> (j < n)%nat -> coef P' k j = coef P k j.
  Proof.
    intros Hk Hj. unfold coef. rewrite rowi_RowObj by exact Hk.
    destruct (Nat.eqb k i); cbn [r_coef]; apply vnth_app_l; rewrite (W k Hk); exact Hj.
  Qed.

  Let exec t := exec_RowObj i n t.

  Lemma exec_RowObj_values t : sx (exec t) = sx t /\ sy (exec t) = sy t /\ sr (exec t) = sr t /\
                               ss (exec t) = qupd (ss t) i (gs t i - gx t n).
  Proof.
    unfold exec, exec_RowObj. cbv zeta.
    destruct (is_basic (grs (set_s t i (gs t i - gx t n)) i)); repeat split; reflexivity.
  Qed.

  Lemma RowObj_identities t : prim_ident P' t /\ dual_ident P' t -> prim_ident P (exec t) /\ dual_ident P (exec t).
  Proof.
    intros [H1 H2]. destruct (exec_RowObj_values t) as (Ex & Ey & Er & Es).
    unfold prim_ident in H1. unfold dual_ident in H2. rewrite nrows_RowObj in H1. rewrite ncols_RowObj in H2. split.
    - intros k Hk. unfold gs. rewrite Es, Ex.
      specialize (H1 k Hk). unfold gs in H1. rewrite activity_RowObj in H1 by exact Hk.
      destruct (Nat.eqb_spec k i) as [Eki|Hne]; [subst k|].
      + rewrite vnth_qupd_same. unfold gs, gx. rewrite H1. ring.
      + rewrite vnth_qupd_other by congruence. rewrite H1. ring.
    - intros j Hj. unfold gr. rewrite Er, Ey.
      specialize (H2 j (Nat.lt_lt_succ_r _ _ Hj)). unfold gr in H2. rewrite H2. rewrite colj_RowObj by exact Hj.
      rewrite !tvec_sumn, nrows_RowObj. apply Qplus_comp; [reflexivity|]. apply Qopp_comp.
      apply sumn_ext. intros k Hk. rewrite coef_RowObj by auto. reflexivity.
  Qed.

  (* primal feasibility: the slack column lives in [-rhs_i, -lhs_i] and row i of the extended LP is the equation = 0 *)
  Lemma RowObj_feasibility_partial t : prim_feas P' t -> prim_feas P (exec t).
  Proof.
    intros [Hc Hr]. destruct (exec_RowObj_values t) as (Ex & Ey & Er & Es).
    rewrite ncols_RowObj in Hc. rewrite nrows_RowObj in Hr. split.
    - intros j Hj. unfold gx. rewrite Ex, <- colj_RowObj by exact Hj. exact (Hc j (Nat.lt_lt_succ_r _ _ Hj)).
    - intros k Hk. unfold gs. rewrite Es.
      specialize (Hr k Hk). rewrite rowi_RowObj in Hr by exact Hk.
      destruct (Nat.eqb_spec k i) as [Eki|Hne]; [subst k|].
      + rewrite vnth_qupd_same. cbn [r_lhs r_rhs] in Hr. destruct Hr as [A B]. simpl in A, B.
        specialize (Hc n (Nat.lt_succ_diag_r n)). rewrite colj_RowObj_slack in Hc. cbn [c_lo c_up] in Hc.
        refine (in_bounds_eq _ _ _ _ _ (in_bounds_opp _ _ _ Hc)). lra.
      + rewrite vnth_qupd_other by congruence. exact Hr.
  Qed.

  Lemma b1_rowobj_map s : b1 (match s with ON_UPPER => ON_LOWER | ON_LOWER => ON_UPPER | o => o end) = b1 s.
  Proof. destruct s; reflexivity. Qed.

  (* a regular basis cannot contain both the slack of row i and the added unit column *)
  Lemma RowObj_count t : ~ (is_basic (grs t i) = true /\ is_basic (gcs t n) = true) -> basis_count P' t -> basis_count P (exec t).
  Proof.
    unfold basis_count. rewrite ncols_RowObj, nrows_RowObj. intros Hnb H. simpl cntb in H. fold (b1 (snth (scs t) n)) in H.
    unfold exec, exec_RowObj. cbv zeta.
    change (grs (set_s t i (gs t i - gx t n)) i) with (grs t i).
    change (gcs (set_s t i (gs t i - gx t n)) n) with (gcs t n).
    destruct (is_basic (grs t i)) eqn:Eb.
    - cbn [scs srs set_s]. fold n. assert (is_basic (gcs t n) = false) by (destruct (is_basic (gcs t n)); [exfalso; auto|reflexivity]).
      unfold b1, gcs in *. rewrite H0 in H. lia.
    - cbn [scs srs set_cs set_rs set_s]. fold n.
      rewrite cntb_supd_beyond by lia.
      match goal with |- context [supd (srs t) i ?v] =>
        pose proof (cntb_supd (srs t) i v (nrows P) Hi) as E;
        assert (B : b1 v = b1 (gcs t n)) by (destruct (gcs t n); reflexivity) end.
      rewrite B in E. unfold b1 at 1 in E. unfold grs in Eb. rewrite Eb in E. unfold gcs in *. lia.
  Qed.
End RowObj.

Lemma scs_fix_col_idx t j oj v : scs (set_cs (fix_col_idx t j oj) j v) = sunswap (scs t) j oj v.
Proof. destruct t. unfold fix_col_idx, sunswap. destruct (Nat.eqb j oj); reflexivity. Qed.

Lemma srs_fix_row_idx t i oi v : srs (set_rs (fix_row_idx t i oi) i v) = sunswap (srs t) i oi v.
Proof. destruct t. unfold fix_row_idx, sunswap. destruct (Nat.eqb i oi); reflexivity. Qed.

(* n1, m1: dimensions of the reduced LP.  The steps that restore column j <= n1 and row i <= m1 correct both indices
   first and write the two statuses last: BASIC for the column, a non-basic one for the row *)
Lemma row_col_restore_count t t' j i n1 m1 w : (j <= n1)%nat -> (i <= m1)%nat -> is_basic w = false ->
  let T := fix_col_idx (fix_row_idx t i m1) j n1 in
  scs t' = scs (set_cs T j BASIC) -> srs t' = srs (set_rs T i w) ->
  (cntb (scs t') (S n1) + cntb (srs t') (S m1) = cntb (scs t) n1 + cntb (srs t) m1 + 1)%nat.
Proof.
  intros Hj Hi Hw T -> ->. unfold T. rewrite scs_fix_col_idx.
  replace (scs (fix_row_idx t i m1)) with (scs t) by (unfold fix_row_idx; destruct (Nat.eqb i m1); reflexivity).
  replace (srs (set_rs (fix_col_idx (fix_row_idx t i m1) j n1) i w)) with (srs (set_rs (fix_row_idx t i m1) i w))
    by (unfold fix_col_idx; destruct (Nat.eqb j n1); reflexivity).
  rewrite srs_fix_row_idx, !cntb_sunswap by assumption. unfold b1. rewrite Hw. simpl. lia.
Qed.

Lemma FreeColSingleton_count c j i n1 m1 obj lRhs onLhs eqCons row t : (j <= n1)%nat -> (i <= m1)%nat ->
  let t' := exec_FreeColSingleton c j i n1 m1 obj lRhs onLhs eqCons row t in
  (cntb (scs t') (S n1) + cntb (srs t') (S m1) = cntb (scs t) n1 + cntb (srs t) m1 + 1)%nat.
Proof.
  intros Hj Hi. apply (row_col_restore_count t _ j i n1 m1 (if eqCons then FIXED else if onLhs then ON_LOWER else ON_UPPER));
    auto. destruct eqCons, onLhs; reflexivity.
Qed.

Lemma MultiAggregation_count c j i n1 m1 obj cst onLhs eqCons row col t : (j <= n1)%nat -> (i <= m1)%nat ->
  let t' := exec_MultiAggregation c j i n1 m1 obj cst onLhs eqCons row col t in
  (cntb (scs t') (S n1) + cntb (srs t') (S m1) = cntb (scs t) n1 + cntb (srs t) m1 + 1)%nat.
Proof.
  intros Hj Hi. apply (row_col_restore_count t _ j i n1 m1 (if eqCons then FIXED else if onLhs then ON_LOWER else ON_UPPER));
    auto. destruct eqCons, onLhs; reflexivity.
Qed.

(* TightenBoundsPS can turn a non-basic column into a basic one without compensation: the count is NOT preserved in
   general (it is when the tightened bound is not active, which is what the simplifier relies on) *)
Lemma TightenBounds_count_refuted :
  exists c j ou ol t, (cntb (scs t) 1 + cntb (srs t) 1 = 1)%nat /\
    let t' := exec_TightenBounds c j ou ol t in (cntb (scs t') 1 + cntb (srs t') 1 = 2)%nat.
Proof.
  exists (exact_cmps (1000000 # 1)), 0%nat, 5, 0, (mkst [2] [0] [2] [0] [ON_LOWER] [BASIC]). split; vm_compute; reflexivity.
Qed.

Lemma TightenBounds_count c j ou ol t n m : (j < n)%nat ->
  (* the bound the column sits at is one of its original bounds *)
  exec_TightenBounds c j ou ol t = t ->
  (cntb (scs (exec_TightenBounds c j ou ol t)) n + cntb (srs (exec_TightenBounds c j ou ol t)) m = cntb (scs t) n + cntb (srs t) m)%nat.
Proof. intros _ E. rewrite E. reflexivity. Qed.

Lemma TightenBounds_values c j ou ol t :
  let t' := exec_TightenBounds c j ou ol t in sx t' = sx t /\ sy t' = sy t /\ ss t' = ss t /\ sr t' = sr t /\ srs t' = srs t.
Proof.
  unfold exec_TightenBounds. cbv zeta. destruct (gcs t j); repeat split;
    repeat match goal with |- context [if ?c then _ else _] => destruct c end; reflexivity.
Qed.

(* boolean versions of the invariants, for the concrete witnesses and examples *)
Definition prim_ident_b (P : lp) (t : st) : bool := forall_lt (nrows P) (fun i => Qeq_bool (gs t i) (activity P i (sx t))).
Definition dual_ident_b (P : lp) (t : st) : bool :=
  forall_lt (ncols P) (fun j => Qeq_bool (gr t j) (c_obj (colj P j) - vnth (tmat_vec (matrix P) (sy t)) j)).
Definition in_bounds_b (lo up : option Q) (v : Q) : bool := in_lo_b lo v && in_up_b up v.
Definition prim_feas_b (P : lp) (t : st) : bool :=
  forall_lt (ncols P) (fun j => in_bounds_b (c_lo (colj P j)) (c_up (colj P j)) (gx t j))
  && forall_lt (nrows P) (fun i => in_bounds_b (r_lhs (rowi P i)) (r_rhs (rowi P i)) (gs t i)).
Definition cs_prop_b (k : Q) (lo up : option Q) (v : Q) : bool :=
  (if Qltb 0 k then match lo with Some l => Qeq_bool l v | None => false end else true)
  && (if Qltb k 0 then match up with Some u => Qeq_bool u v | None => false end else true).
Definition dual_signs_b (P : lp) (t : st) : bool :=
  forall_lt (ncols P) (fun j => cs_prop_b (gr t j) (c_lo (colj P j)) (c_up (colj P j)) (gx t j))
  && forall_lt (nrows P) (fun i => cs_prop_b (gy t i) (r_lhs (rowi P i)) (r_rhs (rowi P i)) (gs t i)).
Definition basis_count_b (P : lp) (t : st) : bool := Nat.eqb (cntb (scs t) (ncols P) + cntb (srs t) (nrows P)) (nrows P).

Lemma forall_lt_spec n f (G : nat -> Prop) : (forall i, f i = true <-> G i) ->
  forall_lt n f = true <-> forall i, (i < n)%nat -> G i.
Proof. intros E. rewrite forall_lt_iff. split; intros H i Hi; apply E, H, Hi. Qed.

Lemma prim_ident_b_ok P t : prim_ident_b P t = true <-> prim_ident P t.
Proof. apply forall_lt_spec. intros i. apply Qeq_bool_iff. Qed.
Lemma dual_ident_b_ok P t : dual_ident_b P t = true <-> dual_ident P t.
Proof. apply forall_lt_spec. intros j. apply Qeq_bool_iff. Qed.
Lemma in_bounds_b_ok lo up v : in_bounds_b lo up v = true <-> in_bounds lo up v.
Proof. unfold in_bounds_b, in_bounds. rewrite andb_true_iff, in_lo_b_iff, in_up_b_iff. tauto. Qed.
Lemma prim_feas_b_ok P t : prim_feas_b P t = true <-> prim_feas P t.
Proof.
  unfold prim_feas_b. rewrite andb_true_iff, !(forall_lt_spec _ _ _ (fun k => in_bounds_b_ok _ _ _)). reflexivity.
Qed.
(* cs_prop_b is Cert.cs_ok written out (the two are convertible), cs_prop what cs_ok_spec says of it *)
Lemma cs_prop_b_ok k lo up v : cs_prop_b k lo up v = true <-> cs_prop k lo up v.
Proof. apply cs_ok_spec. Qed.
Lemma dual_signs_b_ok P t : dual_signs_b P t = true <-> dual_signs P t.
Proof.
  unfold dual_signs_b. rewrite andb_true_iff, !(forall_lt_spec _ _ _ (fun k => cs_prop_b_ok _ _ _ _)). reflexivity.
Qed.
Lemma basis_count_b_ok P t : basis_count_b P t = true <-> basis_count P t.
Proof. unfold basis_count_b, basis_count. apply Nat.eqb_eq. Qed.

Definition all_inv_b (P : lp) (t : st) : bool :=
  prim_ident_b P t && dual_ident_b P t && prim_feas_b P t && dual_signs_b P t && basis_count_b P t.
Lemma all_inv_b_ok P t : all_inv_b P t = true ->
  prim_ident P t /\ dual_ident P t /\ prim_feas P t /\ dual_signs P t /\ basis_count P t.
Proof.
  unfold all_inv_b. rewrite !andb_true_iff. intros [[[[A B] C] D] E].
  apply prim_ident_b_ok in A. apply dual_ident_b_ok in B. apply prim_feas_b_ok in C. apply dual_signs_b_ok in D.
  apply basis_count_b_ok in E. tauto.
Qed.

Definition mkcol (o : Q) (lo up : option Q) : col := {| c_obj := o; c_lo := lo; c_up := up |}.
Definition mkrow (l : option Q) (a : list Q) (u : option Q) : row := {| r_lhs := l; r_coef := a; r_rhs := u |}.

(* the aggregation witness (corpus/C01/agg-duals.lp at the moment of the aggregation, keep-bounds on)
   before:  min 6 x0,  x0 in [-6,-5], x1 >= -2, x2 in [1,3];  -2 x1 <= -2;  4 x0 - 4 x2 = -24;  8 x0 + 4 x1 <= -36
   x2 := x0 + 6 is aggregated, its bounds [1,3] move onto x0: [-5,-3] /\ [-6,-5] = [-5,-5]                              *)
Definition agg_P : lp :=
  {| maximize := false; offset := 0;
     cols := [mkcol 6 (Some (-6)) (Some (-5)); mkcol 0 (Some (-2)) None; mkcol 0 (Some 1) (Some 3)];
     rows := [mkrow None [0; -2; 0] (Some (-2)); mkrow (Some (-24)) [4; 0; -4] (Some (-24)); mkrow None [8; 4; 0] (Some (-36))] |}.
Definition agg_P' : lp :=
  {| maximize := false; offset := 0;
     cols := [mkcol 6 (Some (-5)) (Some (-5)); mkcol 0 (Some (-2)) None];
     rows := [mkrow None [0; -2] (Some (-2)); mkrow None [8; 4] (Some (-36))] |}.
(* optimal basic solution of the reduced LP (vectors keep the dimensions of the original LP) *)
Definition agg_t : st := mkst [-5; 1; 0] [0; 0; 0] [-2; -36; 0] [6; 0; 0] [FIXED; BASIC; UNDEFINED] [ON_UPPER; BASIC; UNDEFINED].
Definition agg_cmps : cmps := exact_cmps (inject_Z (10 ^ 100)).
Definition agg_old := exec_Aggregation_old agg_cmps 2 1 2 2 3 1 0 (-5) (-6) (-24) [(0%nat, 4); (2%nat, -4)] [(1%nat, -4)] agg_t.
Definition agg_new := exec_Aggregation agg_cmps 2 1 2 2 3 1 0 (-5) (-6) (-24) [(0%nat, 4); (2%nat, -4)] [(1%nat, -4)] agg_t.

Lemma agg_witness_reduced_ok : all_inv_b agg_P' agg_t = true.
Proof. vm_compute. reflexivity. Qed.

(* exec_Aggregation_old (the remaining variable enters the basis, the row dual is not recomputed): the returned duals
   violate r = c - A^T y (r_0 = 0 although c_0 = 6 and y = 0) *)
Lemma aggregation_dual_refuted_old_rule :
  prim_ident agg_P' agg_t /\ dual_ident agg_P' agg_t /\ prim_feas agg_P' agg_t /\ dual_signs agg_P' agg_t /\ basis_count agg_P' agg_t /\
  exists t', agg_old = Some t' /\ prim_ident agg_P t' /\ ~ dual_ident agg_P t'.
Proof.
  pose proof (all_inv_b_ok _ _ agg_witness_reduced_ok) as (A & B & C & D & E).
  split; [exact A|]. split; [exact B|]. split; [exact C|]. split; [exact D|]. split; [exact E|].
  eexists. split; [vm_compute; reflexivity|]. split.
  - apply prim_ident_b_ok. vm_compute. reflexivity.
  - intros H. apply dual_ident_b_ok in H. vm_compute in H. discriminate.
Qed.

(* exec_Aggregation (the row dual is recomputed): all five invariants hold for the LP before the aggregation *)
Lemma aggregation_fixed_on_witness :
  exists t', agg_new = Some t' /\ prim_ident agg_P t' /\ dual_ident agg_P t' /\ prim_feas agg_P t' /\ dual_signs agg_P t' /\ basis_count agg_P t'.
Proof.
  eexists. split; [vm_compute; reflexivity|]. apply all_inv_b_ok. vm_compute. reflexivity.
Qed.

(* the dual update of the aggregation step (as coded since SoPlex commit 506310f): R_j, R_k are the reduced costs of
   x_j, x_k without the contribution of the aggregated row,
   r'_k = R_k + coef * R_j (coef = -a_ik / a_ij) is the reduced cost of x_k in the reduced LP.  With the row dual
   y_i = R_j / a_ij + r'_k / a_ik the reduced cost of x_k vanishes and that of x_j is -(a_ij / a_ik) r'_k; its sign fits
   the bound of x_j that had been moved onto x_k. *)
Lemma aggregation_dual_update aij aik Rj Rk : ~ aij == 0 -> ~ aik == 0 ->
  let r'k := Rk + (- (aik / aij)) * Rj in
  let yi := Rj / aij + r'k / aik in
  Rk - aik * yi == 0 /\ Rj - aij * yi == - (aij / aik) * r'k.
Proof. intros H1 H2 r'k yi. unfold yi, r'k. split; field; auto. Qed.

Lemma aggregation_dual_sign aij aik r'k : ~ aij == 0 -> ~ aik == 0 ->
  let coef := - (aik / aij) in
  let rj := - (aij / aik) * r'k in
  (0 < coef -> (0 <= r'k -> 0 <= rj) /\ (r'k <= 0 -> rj <= 0)) /\
  (coef < 0 -> (0 <= r'k -> rj <= 0) /\ (r'k <= 0 -> 0 <= rj)).
Proof.
  intros H1 H2 coef rj.
  assert (E : rj * coef == r'k) by (unfold rj, coef; field; auto).
  split; intros Hs; split; intros Hr; nra.
Qed.

(* the multi-aggregation witness
   before: min x0;  x0 in [0,10], x1 in [-100,100];  x0 + x1 >= 2;  x0 - x1 <= 5.   x1 := 2 - x0 (row 0 at its lhs)
   after:  min x0;  x0 in [0,10];  2 x0 <= 7                                                                            *)
Definition magg_P : lp :=
  {| maximize := false; offset := 0;
     cols := [mkcol 1 (Some 0) (Some 10); mkcol 0 (Some (-100)) (Some 100)];
     rows := [mkrow (Some 2) [1; 1] None; mkrow None [1; -1] (Some 5)] |}.
Definition magg_P' : lp :=
  {| maximize := false; offset := 0; cols := [mkcol 1 (Some 0) (Some 10)]; rows := [mkrow None [2] (Some 7)] |}.
Definition magg_t : st := mkst [0; 0] [0; 0] [0; 0] [1; 0] [ON_LOWER; UNDEFINED] [BASIC; UNDEFINED].
Definition magg_old := exec_MultiAggregation_old agg_cmps 1 0 1 1 0 2 true false [(0%nat, 1); (1%nat, 1)] [(0%nat, 1); (1%nat, -1)] magg_t.
Definition magg_new := exec_MultiAggregation agg_cmps 1 0 1 1 0 2 true false [(0%nat, 1); (1%nat, 1)] [(0%nat, 1); (1%nat, -1)] magg_t.

Lemma magg_witness_reduced_ok : all_inv_b magg_P' magg_t = true.
Proof. vm_compute. reflexivity. Qed.

Lemma multiaggregation_slack_refuted_old_rule :
  prim_ident magg_P' magg_t /\ dual_ident magg_P' magg_t /\ prim_feas magg_P' magg_t /\ dual_signs magg_P' magg_t /\ basis_count magg_P' magg_t /\
  dual_ident magg_P magg_old /\ ~ prim_ident magg_P magg_old.
Proof.
  pose proof (all_inv_b_ok _ _ magg_witness_reduced_ok) as (A & B & C & D & E).
  split; [exact A|]. split; [exact B|]. split; [exact C|]. split; [exact D|]. split; [exact E|]. split.
  - apply dual_ident_b_ok. vm_compute. reflexivity.
  - intros H. apply prim_ident_b_ok in H. vm_compute in H. discriminate.
Qed.

Lemma multiaggregation_fixed_on_witness :
  prim_ident magg_P magg_new /\ dual_ident magg_P magg_new /\ prim_feas magg_P magg_new /\ dual_signs magg_P magg_new /\ basis_count magg_P magg_new.
Proof. apply all_inv_b_ok. vm_compute. reflexivity. Qed.

Lemma Qltb_irrefl_false a b : Qltb a b = true -> a < b.
Proof. apply Qltb_lt. Qed.

Theorem invariants_give_optimality (P : lp) (t : st) :
  maximize P = false -> wf_lp P -> (ncols P <= length (sx t))%nat -> (nrows P <= length (sy t))%nat ->
  prim_ident P t -> dual_ident P t -> prim_feas P t -> dual_signs P t ->
  check_opt_exact P (firstn (ncols P) (sx t)) (firstn (nrows P) (sy t)) = true /\ optimal P (firstn (ncols P) (sx t)).
Proof.
  intros Hmin W Lx Ly Hp Hd [Fc Fr] [Sc Sr].
  assert (Eact : forall i, (i < nrows P)%nat -> gs t i == activity P i (firstn (ncols P) (sx t))).
  { intros i Hi. unfold activity. rewrite dot_firstn by (rewrite W by auto; lia). apply (Hp i Hi). }
  assert (Ered : forall j, (j < ncols P)%nat -> gr t j == redcost P (firstn (nrows P) (sy t)) j).
  { intros j Hj. unfold redcost, tvec. rewrite tmat_vec_firstn by (rewrite matrix_length; lia). apply (Hd j Hj). }
  assert (C : check_opt_exact P (firstn (ncols P) (sx t)) (firstn (nrows P) (sy t)) = true).
  { apply check_opt_exact_iff. unfold sgn. rewrite Hmin. refine (conj (conj _ (conj _ _)) (conj _ (conj _ _))).
    - apply firstn_length_le; exact Lx.
    - intros j Hj. rewrite vnth_firstn by exact Hj. apply (Fc j Hj).
    - intros i Hi. exact (in_bounds_eq _ _ _ _ (Eact i Hi) (Fr i Hi)).
    - apply firstn_length_le; exact Ly.
    - intros j Hj. rewrite vnth_firstn by exact Hj. apply cs_ok_spec.
      refine (cs_prop_eq _ _ _ _ _ _ _ (Qeq_refl _) (Sc j Hj)). rewrite (Ered j Hj). ring.
    - intros i Hi. rewrite vnth_firstn by exact Hi. apply cs_ok_spec.
      refine (cs_prop_eq _ _ _ _ _ _ _ (Eact i Hi) (Sr i Hi)). unfold gy. ring. }
  split; [exact C|]. apply opt_cert_sound with (y := firstn (nrows P) (sy t)). exact C.
Qed.
