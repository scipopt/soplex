(* Lemmas about the settings-line tokeniser.  [tokenise] is three stages over the C string of the line: two fields that end in
   their separator (':' and '=') and the value; each stage is split off as a function of its own ([field], [value]) and
   characterised once. *)
From Coq Require Import ZArith Bool List Lia.
Import ListNotations.
From SV Require Import SettingsLexer.
Local Open Scope Z_scope.

Lemma skipws_split l : exists a, l = a ++ skipws l.
Proof.
  induction l as [|c r [a IH]]; cbn [skipws].
  - exists []. reflexivity.
  - destruct (is_blank c).
    + exists (c :: a). cbn [app]. now rewrite <- IH.
    + exists []. reflexivity.
Qed.

Lemma span_tok_app sep l : l = fst (span_tok sep l) ++ snd (span_tok sep l).
Proof.
  induction l as [|c r IH]; cbn [span_tok]; [reflexivity|].
  destruct (is_blank c || is_eol c || (c =? sep)); [reflexivity|].
  destruct (span_tok sep r) as [t rest]. cbn [fst snd app] in *. now rewrite <- IH.
Qed.

Lemma span_tok_clean sep l : Forall (fun c => is_blank c = false /\ is_eol c = false) (fst (span_tok sep l)).
Proof.
  induction l as [|c r IH]; cbn [span_tok]; [constructor|].
  destruct (is_blank c || is_eol c || (c =? sep)) eqn:E; [constructor|].
  destruct (span_tok sep r) as [t rest]. cbn [fst] in *. constructor; [|exact IH].
  apply orb_false_iff in E. destruct E as [E _]. apply orb_false_iff in E. exact E.
Qed.

(* what [expect_sep] skips contains the separator *)
Lemma expect_sep_split sep r r' : expect_sep sep r = Some r' -> exists b, r = b ++ r' /\ In sep b.
Proof.
  unfold expect_sep. destruct r as [|c r0]; [discriminate|].
  destruct (c =? sep) eqn:E.
  - intros [= <-]. apply Z.eqb_eq in E. exists [c]. split; [reflexivity | left; exact E].
  - destruct (skipws_split r0) as [a Ea]. destruct (skipws r0) as [|c' r1] eqn:Es; [discriminate|].
    destruct (c' =? sep) eqn:E'; [|discriminate]. intros [= <-]. apply Z.eqb_eq in E'.
    exists (c :: a ++ [c']). split.
    + cbn [app]. rewrite <- app_assoc. cbn [app]. now rewrite <- Ea.
    + right. apply in_or_app. right. left. exact E'.
Qed.

(* what [field] returns: end of line, no separator after the token, or the token t and the rest r after the separator *)
Inductive fres := FEnd | FBad | FOk (t r : list Z).

(* a token that must be followed by [sep]: the token and what follows the separator *)
Definition field (sep : Z) (l : list Z) : fres :=
  let l0 := skipws l in
  if at_end l0 then FEnd else
  let (t, r) := span_tok sep l0 in
  match expect_sep sep r with Some r' => FOk t r' | None => FBad end.

(* the last token: nothing but blanks and a comment may follow *)
Definition value (l : list Z) : option (list Z) :=
  let l0 := skipws l in
  if at_end l0 then None else
  let (v, r) := span_tok (-1) l0 in
  match r with
  | [] => Some v
  | _ :: r' => if at_end (skipws r') then Some v else None
  end.

Lemma tokenise_eq line :
  tokenise line =
  match field 58 (cstr line) with
  | FEnd => TBlank
  | FBad => TError
  | FOk ty r =>
    match field 61 r with
    | FOk name r' => match value r' with Some val => TOk ty name val | None => TError end
    | _ => TError
    end
  end.
Proof.
  unfold tokenise, field, value. destruct (at_end (skipws (cstr line))); [reflexivity|].
  destruct (span_tok 58 _) as [ty r1]. destruct (expect_sep 58 r1) as [r2|]; [|reflexivity].
  destruct (at_end (skipws r2)); [reflexivity|].
  destruct (span_tok 61 _) as [name r3]. destruct (expect_sep 61 r3) as [r4|]; [|reflexivity].
  destruct (at_end (skipws r4)); [reflexivity|].
  destruct (span_tok (-1) _) as [val [|c r5]]; [reflexivity|]. destruct (at_end (skipws r5)); reflexivity.
Qed.

Lemma field_split sep l t r :
  field sep l = FOk t r ->
  exists a b, l = a ++ t ++ b ++ r /\ Forall (fun c => is_blank c = false /\ is_eol c = false) t /\ In sep b.
Proof.
  unfold field. destruct (skipws_split l) as [a Ea]. destruct (at_end (skipws l)); [discriminate|].
  pose proof (span_tok_app sep (skipws l)) as E. pose proof (span_tok_clean sep (skipws l)) as C.
  destruct (span_tok sep (skipws l)) as [t' r1]. cbn [fst snd] in *.
  destruct (expect_sep sep r1) as [r'|] eqn:X; [|discriminate]. intros [= -> ->].
  apply expect_sep_split in X as (b & -> & Hb). exists a, b. rewrite <- E. auto.
Qed.

Lemma value_split l v :
  value l = Some v -> exists a d, l = a ++ v ++ d /\ Forall (fun c => is_blank c = false /\ is_eol c = false) v.
Proof.
  unfold value. destruct (skipws_split l) as [a Ea]. destruct (at_end (skipws l)); [discriminate|].
  pose proof (span_tok_app (-1) (skipws l)) as E. pose proof (span_tok_clean (-1) (skipws l)) as C.
  destruct (span_tok (-1) (skipws l)) as [v' r]. cbn [fst snd] in *. intros H.
  assert (v' = v) as -> by (destruct r as [|c r']; [|destruct (at_end (skipws r')); [|discriminate]]; now injection H).
  exists a, r. rewrite <- E. auto.
Qed.

(* every token is a contiguous segment of the C string of the line, the segments are disjoint and in order, ':' stands
   between the first two and '=' between the last two *)
Lemma tokenise_split line ty name val :
  tokenise line = TOk ty name val ->
  exists a b c d, cstr line = a ++ ty ++ b ++ name ++ c ++ val ++ d /\
    Forall (fun c => is_blank c = false /\ is_eol c = false) ty /\
    Forall (fun c => is_blank c = false /\ is_eol c = false) name /\
    Forall (fun c => is_blank c = false /\ is_eol c = false) val /\ In 58 b /\ In 61 c.
Proof.
  rewrite tokenise_eq. destruct (field 58 (cstr line)) as [| |ty' r] eqn:F1; try discriminate.
  destruct (field 61 r) as [| |name' r'] eqn:F2; try discriminate.
  destruct (value r') as [val'|] eqn:F3; [|discriminate]. intros [= -> -> ->].
  apply field_split in F1 as (a & b1 & -> & C1 & H1). apply field_split in F2 as (b2 & c1 & -> & C2 & H2).
  apply value_split in F3 as (c2 & d & -> & C3).
  exists a, (b1 ++ b2), (c1 ++ c2), d. rewrite <- !app_assoc. repeat split; auto; apply in_or_app; auto.
Qed.

Lemma tokenise_ok_has_separators line ty name val :
  tokenise line = TOk ty name val -> In 58 (cstr line) /\ In 61 (cstr line).
Proof.
  intros H. apply tokenise_split in H as (a & b & c & d & -> & _ & _ & _ & Hb & Hc).
  rewrite !in_app_iff. tauto.
Qed.

Lemma tokenise_without_eq line : ~ In 61 (cstr line) -> tokenise line = TBlank \/ tokenise line = TError.
Proof.
  intros Hn; destruct (tokenise line) as [| |ty name val] eqn:E; [left; reflexivity | right; reflexivity|].
  exfalso; apply Hn; exact (proj2 (tokenise_ok_has_separators _ _ _ _ E)).
Qed.

(* the C string ends at the first NUL: what follows it in the buffer is not part of the line *)
Lemma cstr_cut a b : cstr (a ++ 0 :: b) = cstr a.
Proof. induction a as [|c r IH]; cbn [cstr app]; [reflexivity|]. destruct (c =? 0); [reflexivity | now rewrite IH]. Qed.

(* up to its first NUL a buffer is copied *)
Lemma cstr_app_nonul a b : Forall (fun c => c <> 0) a -> cstr (a ++ b) = a ++ cstr b.
Proof. induction 1 as [|c a Hc H IH]; simpl; auto. apply Z.eqb_neq in Hc. rewrite Hc. now f_equal. Qed.

Lemma cstr_nonul l : Forall (fun c => c <> 0) (cstr l).
Proof.
  induction l as [|c r IH]; cbn [cstr]; [constructor|]. destruct (c =? 0) eqn:E; constructor; [|exact IH].
  apply Z.eqb_neq. exact E.
Qed.

Lemma cstr_id s : Forall (fun c => c <> 0) s -> cstr s = s.
Proof. intros H. rewrite <- (app_nil_r s) at 1. rewrite (cstr_app_nonul s [] H). apply app_nil_r. Qed.

Lemma cstr_idem l : cstr (cstr l) = cstr l.
Proof. apply cstr_id, cstr_nonul. Qed.

Lemma tokenise_cstr line : tokenise line = tokenise (cstr line).
Proof. unfold tokenise. now rewrite cstr_idem. Qed.

(* what the line buffer holds behind the terminator (left-overs of earlier lines) is invisible *)
Lemma tokenise_ignores_buffer_tail a b : tokenise (a ++ 0 :: b) = tokenise a.
Proof. now rewrite (tokenise_cstr (a ++ 0 :: b)), cstr_cut, <- tokenise_cstr. Qed.
