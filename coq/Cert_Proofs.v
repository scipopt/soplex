(* Soundness of the certificate checkers of Cert.v: weak duality, exact optimality certificates, Farkas certificates,
   improving rays, mutual exclusion of verdicts, and what the tolerance checkers guarantee. *)
From Coq Require Import QArith Qabs List Lia Lqa Bool Setoid Morphisms.
From SV Require Import Vec LP Cert.
Import ListNotations.
Local Open Scope Q_scope.

Lemma Qltb_spec a b : BoolSpec (a < b) (b <= a) (Qltb a b).
Proof. destruct (Qltb a b) eqn:E; constructor; [now apply Qltb_lt | now apply Qltb_false]. Qed.

Global Instance in_lo_proper lo : Proper (Qeq ==> iff) (in_lo lo).
Proof. intros v w E. destruct lo; simpl; [now rewrite E | tauto]. Qed.
Global Instance in_up_proper up : Proper (Qeq ==> iff) (in_up up).
Proof. intros v w E. destruct up; simpl; [now rewrite E | tauto]. Qed.

Lemma matrix_length P : length (matrix P) = nrows P.
Proof. apply map_length. Qed.

Lemma nth_matrix P i : nth i (matrix P) [] = r_coef (rowi P i).
Proof. apply (map_nth r_coef _ drow). Qed.

(* sum of g over an index list *)
Fixpoint sumseq (g : nat -> Q) (l : list nat) : Q :=
  match l with [] => 0 | j :: r => g j + sumseq g r end.

Lemma sumseq_le g h l : (forall j, In j l -> g j <= h j) -> sumseq g l <= sumseq h l.
Proof.
  induction l as [|j l IH]; intros H; simpl; try lra.
  assert (g j <= h j) by (apply H; now left).
  assert (sumseq g l <= sumseq h l) by (apply IH; intros; apply H; now right). lra.
Qed.

Lemma sumseq_eq g h l : (forall j, In j l -> g j == h j) -> sumseq g l == sumseq h l.
Proof. intros H. apply Qle_antisym; apply sumseq_le; intros j Hj; rewrite (H j Hj); lra. Qed.

Lemma sumseq_filter g (p : nat -> bool) l : (forall j, p j = false -> g j == 0) -> sumseq g (filter p l) == sumseq g l.
Proof.
  intros H. induction l as [|j l IH]; simpl; [reflexivity|].
  destruct (p j) eqn:E; simpl; rewrite IH; [reflexivity | rewrite (H j E); ring].
Qed.

Lemma sumseq_plus g h l : sumseq (fun j => g j + h j) l == sumseq g l + sumseq h l.
Proof. induction l as [|j l IH]; simpl; try ring. rewrite IH. ring. Qed.

Lemma sumseq_scale c g l : sumseq (fun j => c * g j) l == c * sumseq g l.
Proof. induction l as [|j l IH]; simpl; try ring. rewrite IH. ring. Qed.

Lemma sumseq_map_S g l : sumseq g (map S l) = sumseq (fun j => g (S j)) l.
Proof. induction l as [|j l IH]; simpl; congruence. Qed.

Lemma dot_sumseq : forall v u, dot u v == sumseq (fun j => vnth u j * vnth v j) (seq 0 (length v)).
Proof.
  induction v as [|b v IH]; intros u.
  - simpl. now rewrite dot_nil_r.
  - destruct u as [|a u].
    + cbn [dot]. rewrite (sumseq_eq _ (fun _ => 0 * 0)) by (intros; rewrite vnth_nil; ring).
      rewrite sumseq_scale. ring.
    + cbn [length seq sumseq dot vnth]. rewrite <- seq_shift, sumseq_map_S. cbn [vnth]. rewrite IH. reflexivity.
Qed.

Lemma nth_objvec p j : vnth (objvec p) j = c_obj (colj p j).
Proof.
  unfold objvec, colj. revert j. induction (cols p) as [|c l IH]; intros [|j]; simpl; auto.
Qed.

Lemma activity_vnth p x i : (i < nrows p)%nat -> vnth (mat_vec (matrix p) x) i == activity p i x.
Proof. intros H. rewrite vnth_map_dot, nth_matrix by (now rewrite matrix_length). reflexivity. Qed.

(* (A^T y).x = y.(A x), both sides as index sums *)
Lemma tvec_sums p y x : length x = ncols p -> length y = nrows p ->
  sumseq (fun j => vnth (tvec p y) j * vnth x j) (seq 0 (ncols p))
  == sumseq (fun i => vnth y i * activity p i x) (seq 0 (nrows p)).
Proof.
  intros Hx Hy. rewrite <- Hx, <- dot_sumseq. unfold tvec.
  rewrite dot_tmat_vec, dot_sumseq, mat_vec_length, matrix_length.
  apply sumseq_eq. intros i Hi. apply in_seq in Hi. rewrite activity_vnth by lia. reflexivity.
Qed.

Lemma lagrange_sums p y x : length x = ncols p -> length y = nrows p ->
  sgn p * dot (objvec p) x ==
  sumseq (fun j => (sgn p * redcost p y j) * vnth x j) (seq 0 (ncols p))
  + sumseq (fun i => (sgn p * vnth y i) * activity p i x) (seq 0 (nrows p)).
Proof.
  intros Hx Hy.
  rewrite (sumseq_eq (fun i => sgn p * vnth y i * activity p i x) (fun i => sgn p * (vnth y i * activity p i x)))
    by (intros; ring).
  rewrite sumseq_scale, <- (tvec_sums p y x Hx Hy), <- sumseq_scale, <- sumseq_plus, dot_sumseq, Hx, <- sumseq_scale.
  apply sumseq_eq. intros j _. rewrite nth_objvec. unfold redcost. ring.
Qed.

Lemma lower_term_sound k lo up v t :
  lower_term k lo up = Some t -> in_lo lo v -> in_up up v -> t <= k * v.
Proof.
  unfold lower_term. intros H Hl Hu.
  destruct (Qltb_spec 0 k); [|destruct (Qltb_spec k 0)].
  - destruct lo as [l|]; simpl in *; try discriminate. injection H as <-. nra.
  - destruct up as [u|]; simpl in *; try discriminate. injection H as <-. nra.
  - injection H as <-. assert (k == 0) by lra. nra.
Qed.

Lemma lower_terms_sound (k v : nat -> Q) (lo up : nat -> option Q) n : forall a,
  osum (map (fun j => lower_term (k j) (lo j) (up j)) (seq 0 n)) = Some a ->
  (forall j, (j < n)%nat -> in_lo (lo j) (v j) /\ in_up (up j) (v j)) ->
  a <= sumseq (fun j => k j * v j) (seq 0 n).
Proof.
  intros a Ha H.
  assert (G : forall j, In j (seq 0 n) -> in_lo (lo j) (v j) /\ in_up (up j) (v j))
    by (intros j Hj; apply in_seq in Hj; apply H; lia).
  clear H. revert a Ha. induction (seq 0 n) as [|j l IH]; intros a Ha; simpl in *.
  - injection Ha as <-. lra.
  - destruct (lower_term (k j) (lo j) (up j)) as [t|] eqn:E; try discriminate.
    destruct (osum _) as [b|]; try discriminate. injection Ha as <-.
    destruct (G j) as [Hl Hu]; [now left|]. pose proof (lower_term_sound _ _ _ _ _ E Hl Hu).
    assert (b <= sumseq (fun j => k j * v j) l) by (apply IH; auto). lra.
Qed.

Theorem weak_duality p y x b :
  dual_bound p y = Some b -> feasible p x -> no_worse p b (objective p x).
Proof.
  unfold dual_bound. intros H (Hx & Hc & Hr).
  destruct (Nat.eqb (length y) (nrows p)) eqn:Ey; simpl in H; try discriminate.
  apply Nat.eqb_eq in Ey.
  destruct (osum (col_terms p y)) as [a|] eqn:Ea; try discriminate.
  destruct (osum (row_terms p y)) as [c|] eqn:Ec; try discriminate. injection H as <-.
  apply no_worse_sgn. unfold objective.
  pose proof (lagrange_sums p y x Hx Ey) as L.
  pose proof (lower_terms_sound _ (vnth x) _ _ _ _ Ea Hc) as A.
  pose proof (lower_terms_sound _ (fun i => activity p i x) _ _ _ _ Ec Hr) as C.
  cbv beta in A, C. unfold sgn in *. destruct (maximize p); lra.
Qed.

Lemma cs_ok_spec k lo up v : cs_ok k lo up v = true <->
  (0 < k -> match lo with Some l => l == v | None => False end) /\
  (k < 0 -> match up with Some u => u == v | None => False end).
Proof.
  unfold cs_ok, tight_lo, tight_up. rewrite andb_true_iff.
  apply Morphisms_Prop.and_iff_morphism; [destruct (Qltb_spec 0 k), lo | destruct (Qltb_spec k 0), up];
    rewrite ?Qeq_bool_iff; split; intros; auto; try discriminate; try lra; now exfalso.
Qed.

Lemma cs_ok_ext k k' lo up v v' : k == k' -> v == v' -> cs_ok k lo up v = true -> cs_ok k' lo up v' = true.
Proof.
  rewrite !cs_ok_spec. intros Ek Ev [A B].
  split; intros H; [assert (H' : 0 < k) by lra; specialize (A H'); destruct lo
                   | assert (H' : k < 0) by lra; specialize (B H'); destruct up]; auto; lra.
Qed.

Lemma cs_ok_term k lo up v v' :
  cs_ok k lo up v = true -> in_lo lo v' -> in_up up v' -> k * v <= k * v'.
Proof.
  intros H Hl Hu. apply cs_ok_spec in H as [A B].
  destruct (Qlt_le_dec 0 k) as [P|P]; [|destruct (Qlt_le_dec k 0) as [N|N]].
  - specialize (A P). destruct lo as [l|]; simpl in *; [rewrite <- A; nra | contradiction].
  - specialize (B N). destruct up as [u|]; simpl in *; [rewrite <- B; nra | contradiction].
  - assert (k == 0) by lra. nra.
Qed.

Lemma cs_terms_le (k v v' : nat -> Q) (lo up : nat -> option Q) n :
  (forall j, (j < n)%nat -> cs_ok (k j) (lo j) (up j) (v j) = true) ->
  (forall j, (j < n)%nat -> in_lo (lo j) (v' j) /\ in_up (up j) (v' j)) ->
  sumseq (fun j => k j * v j) (seq 0 n) <= sumseq (fun j => k j * v' j) (seq 0 n).
Proof.
  intros H H'. apply sumseq_le. intros j Hj. apply in_seq in Hj. destruct (H' j) as [Hl Hu]; [lia|].
  apply (cs_ok_term _ _ _ _ _ (H j ltac:(lia)) Hl Hu).
Qed.

Lemma check_opt_exact_iff p x y : check_opt_exact p x y = true <->
  feasible p x /\ length y = nrows p /\
  (forall j, (j < ncols p)%nat -> cs_ok (sgn p * redcost p y j) (c_lo (colj p j)) (c_up (colj p j)) (vnth x j) = true) /\
  (forall i, (i < nrows p)%nat -> cs_ok (sgn p * vnth y i) (r_lhs (rowi p i)) (r_rhs (rowi p i)) (activity p i x) = true).
Proof. unfold check_opt_exact. rewrite !andb_true_iff, feasible_b_iff, Nat.eqb_eq, !forall_lt_iff. tauto. Qed.

(* one variable (a column with its value and reduced cost, a row with its activity and multiplier): within its bounds,
   and the signed multiplier k only where the matching bound is tight *)
Definition kkt_at (k : Q) (lo up : option Q) (v : Q) : Prop := in_lo lo v /\ in_up up v /\ cs_ok k lo up v = true.

Lemma check_opt_exact_vars p x y : length x = ncols p -> length y = nrows p ->
  (forall j, (j < ncols p)%nat -> kkt_at (sgn p * redcost p y j) (c_lo (colj p j)) (c_up (colj p j)) (vnth x j)) ->
  (forall i, (i < nrows p)%nat -> kkt_at (sgn p * vnth y i) (r_lhs (rowi p i)) (r_rhs (rowi p i)) (activity p i x)) ->
  check_opt_exact p x y = true.
Proof.
  intros Hx Hy C R. apply check_opt_exact_iff. split; [split; [exact Hx | split] | split; [exact Hy | split]];
    intros k Hk; first [destruct (C k Hk) as (A & B & S) | destruct (R k Hk) as (A & B & S)]; auto.
Qed.

Theorem opt_cert_sound p x y : check_opt_exact p x y = true -> optimal p x.
Proof.
  intros H. apply check_opt_exact_iff in H as (Hf & Hy & Hc & Hr).
  split; auto. intros x' (Hx' & Hc' & Hr').
  apply no_worse_sgn. unfold objective.
  destruct Hf as (Hx & _ & _).
  pose proof (lagrange_sums p y x Hx Hy) as L. pose proof (lagrange_sums p y x' Hx' Hy) as L'.
  pose proof (cs_terms_le _ _ _ _ _ _ Hc Hc') as A. pose proof (cs_terms_le _ _ _ _ _ _ Hr Hr') as C.
  cbv beta in A, C. lra.
Qed.

Theorem farkas_sound p y : check_farkas p y = true -> infeasible p.
Proof.
  unfold check_farkas. intros H x (Hx & Hc & Hr).
  apply andb_true_iff in H as [Hy H]. apply Nat.eqb_eq in Hy.
  destruct (farkas_L p y) as [l|] eqn:El; try discriminate.
  destruct (farkas_negU p y) as [nu|] eqn:Eu; try discriminate.
  apply Qltb_lt in H.
  pose proof (lower_terms_sound _ (fun i => activity p i x) _ _ _ _ El Hr) as A.
  pose proof (lower_terms_sound _ (vnth x) _ _ _ _ Eu Hc) as B. cbv beta in A, B.
  rewrite (sumseq_eq _ (fun j => (-1) * (vnth (tvec p y) j * vnth x j))), sumseq_scale, (tvec_sums p y x Hx Hy) in B
    by (intros; ring).
  lra.
Qed.

Lemma box_ncols M p : ncols (box M p) = ncols p.
Proof. unfold ncols, box; simpl. apply map_length. Qed.

Lemma box_colj M p j : (j < ncols p)%nat -> colj (box M p) j = box_col M (colj p j).
Proof.
  intros H. unfold colj, box; simpl. rewrite (nth_indep _ dcol (box_col M dcol)) by (now rewrite map_length).
  apply map_nth.
Qed.

Lemma box_feasible M p x :
  feasible p x -> (forall j, (j < ncols p)%nat -> - M <= vnth x j /\ vnth x j <= M) -> feasible (box M p) x.
Proof.
  intros (Hx & Hc & Hr) HM. split; [now rewrite box_ncols|]. split.
  - intros j Hj. rewrite box_ncols in Hj. rewrite box_colj by auto. destruct (Hc j Hj) as [A B]. destruct (HM j Hj).
    unfold box_col; simpl. split.
    + destruct (c_lo (colj p j)); simpl in *; auto.
    + destruct (c_up (colj p j)); simpl in *; auto.
  - intros i Hi. apply (Hr i Hi).
Qed.

(* a Farkas vector accepted for the M-box of the LP excludes every feasible point with |x_j| <= M *)
Theorem farkas_box_sound M p y :
  check_farkas (box M p) y = true ->
  forall x, feasible p x -> ~ (forall j, (j < ncols p)%nat -> - M <= vnth x j /\ vnth x j <= M).
Proof.
  intros H x Hf HM. apply (farkas_sound _ _ H x). now apply box_feasible.
Qed.

Lemma vadd_length u v : length u = length v -> length (vadd u v) = length u.
Proof. revert v; induction u as [|a u IH]; intros [|b v] H; simpl in *; try discriminate; auto. Qed.

Definition along (x r : list Q) (t : Q) : list Q := vadd x (vscale t r).

Lemma along_length x r t : length r = length x -> length (along x r t) = length x.
Proof. intros H. unfold along. apply vadd_length. unfold vscale. now rewrite map_length. Qed.

Lemma vnth_along x r t j : vnth (along x r t) j == vnth x j + t * vnth r j.
Proof. unfold along. now rewrite vnth_vadd, vnth_vscale. Qed.

Lemma activity_along p i x r t : activity p i (along x r t) == activity p i x + t * activity p i r.
Proof. unfold activity, along. now rewrite dot_vadd_r, dot_vscale_r. Qed.

Lemma objective_along p x r t : objective p (along x r t) == objective p x + t * dot (objvec p) r.
Proof. unfold objective, along. rewrite dot_vadd_r, dot_vscale_r. ring. Qed.

Lemma along_improves p x r t : sgn p * dot (objvec p) r < 0 -> 0 < t ->
  strictly_better p (objective p (along x r t)) (objective p x).
Proof. intros H Ht. apply strictly_better_sgn. rewrite objective_along. nra. Qed.

Lemma Qabs_le_iff a e : Qabs_le a e = true <-> - e <= a /\ a <= e.
Proof. unfold Qabs_le. rewrite andb_true_iff, !Qle_bool_iff. tauto. Qed.

Lemma in_lo_tol_iff e lo v : in_lo_tol e lo v = true <-> match lo with None => True | Some l => l - e <= v end.
Proof. destruct lo; simpl; [apply Qle_bool_iff | tauto]. Qed.
Lemma in_up_tol_iff e up v : in_up_tol e up v = true <-> match up with None => True | Some u => v <= u + e end.
Proof. destruct up; simpl; [apply Qle_bool_iff | tauto]. Qed.

Lemma in_tol_near e d lo up v w : - d <= w - v <= d ->
  in_lo_tol e lo v = true /\ in_up_tol e up v = true -> in_lo_tol (e + d) lo w = true /\ in_up_tol (e + d) up w = true.
Proof.
  rewrite !in_lo_tol_iff, !in_up_tol_iff. intros D [A B]. split; [destruct lo | destruct up]; auto; lra.
Qed.

(* what an accepted floating-point optimality certificate states, clause by clause *)
Record opt_tol_clauses (t : tols) (p : lp) (x s y d : list Q) (v : Q) : Prop := {
  otc_bounds : forall j, (j < ncols p)%nat ->
      in_lo_tol (tp t) (c_lo (colj p j)) (vnth x j) = true /\ in_up_tol (tp t) (c_up (colj p j)) (vnth x j) = true;
  otc_sides : forall i, (i < nrows p)%nat ->
      in_lo_tol (tp t) (r_lhs (rowi p i)) (vnth s i) = true /\ in_up_tol (tp t) (r_rhs (rowi p i)) (vnth s i) = true;
  otc_slack : forall i, (i < nrows p)%nat -> - tp t <= vnth s i - activity p i x <= tp t;
  otc_station : forall j, (j < ncols p)%nat -> - td t <= vnth d j - redcost p y j <= td t;
  otc_sign_cols : forall j, (j < ncols p)%nat ->
      cs_tol (td t) (tc t) (sgn p * vnth d j) (c_lo (colj p j)) (c_up (colj p j)) (vnth x j) = true;
  otc_sign_rows : forall i, (i < nrows p)%nat ->
      cs_tol (td t) (tc t) (sgn p * vnth y i) (r_lhs (rowi p i)) (r_rhs (rowi p i)) (vnth s i) = true;
  otc_value : - (tv t * (1 + Qabs v)) <= v - objective p x <= tv t * (1 + Qabs v)
}.

Lemma forall_lt_andb n f g :
  forall_lt n (fun i => f i && g i) = true <-> forall i, (i < n)%nat -> f i = true /\ g i = true.
Proof. rewrite forall_lt_iff. split; intros H i Hi; apply andb_true_iff, H, Hi. Qed.

Lemma forall_lt_Qabs_le n f e :
  forall_lt n (fun i => Qabs_le (f i) e) = true <-> forall i, (i < n)%nat -> - e <= f i <= e.
Proof. rewrite forall_lt_iff. split; intros H i Hi; apply Qabs_le_iff, H, Hi. Qed.

Lemma check_opt_tol_iff t p x s y d v : check_opt_tol t p x s y d v = true <->
  (length x = ncols p /\ length d = ncols p /\ length s = nrows p /\ length y = nrows p) /\ opt_tol_clauses t p x s y d v.
Proof.
  unfold check_opt_tol.
  rewrite !andb_true_iff, !Nat.eqb_eq, !forall_lt_andb, !forall_lt_Qabs_le, !forall_lt_iff, Qabs_le_iff. split.
  - intros [[[[[[[[[[Lx Ld] Ls] Ly] Hb] Hs] Hsl] Hst] Hsc] Hsr] Hv]. split; [tauto | now constructor].
  - intros [L []]. tauto.
Qed.

Theorem check_opt_tol_spec t p x s y d v :
  0 <= tp t ->
  check_opt_tol t p x s y d v = true -> opt_tol_clauses t p x s y d v /\ feasible_tol (tp t + tp t) p x.
Proof.
  intros Hpos H. apply check_opt_tol_iff in H as [(Lx & _) C]. split; [exact C|].
  split; [exact Lx|]. split.
  - intros j Hj. apply (in_tol_near _ _ _ _ (vnth x j)); [lra | apply (otc_bounds _ _ _ _ _ _ _ C j Hj)].
  - intros i Hi. apply (in_tol_near _ _ _ _ (vnth s i)); [|apply (otc_sides _ _ _ _ _ _ _ C i Hi)].
    pose proof (otc_slack _ _ _ _ _ _ _ C i Hi). lra.
Qed.

(* dir_ok with tolerance e: what check_ray_tol asks of the direction at one column or row *)
Definition dir_tol (e : Q) (lo up : option Q) (r : Q) : bool :=
  (match lo with Some _ => Qle_bool (- e) r | None => true end) && (match up with Some _ => Qle_bool r e | None => true end).

Lemma dir_tol_step e0 e lo up v r t w : dir_tol e lo up r = true ->
  0 <= t -> w == v + t * r ->
  in_lo_tol e0 lo v = true /\ in_up_tol e0 up v = true -> in_lo_tol (e0 + t * e) lo w = true /\ in_up_tol (e0 + t * e) up w = true.
Proof.
  rewrite !in_lo_tol_iff, !in_up_tol_iff. intros H Ht E [Hl Hu]. apply andb_true_iff in H as [H1 H2]. split.
  - destruct lo as [l|]; auto. apply Qle_bool_iff in H1. rewrite E. nra.
  - destruct up as [u|]; auto. apply Qle_bool_iff in H2. rewrite E. nra.
Qed.

Theorem ray_tol_sound e0 e p x0 r :
  feasible_tol e0 p x0 -> check_ray_tol e p r = true ->
  forall t, 0 <= t ->
    feasible_tol (e0 + t * e) p (along x0 r t) /\
    objective p (along x0 r t) == objective p x0 + t * dot (objvec p) r /\
    (0 < t -> strictly_better p (objective p (along x0 r t)) (objective p x0)).
Proof.
  intros (Hx & Hc & Hr) H t Ht. unfold check_ray_tol in H. rewrite !andb_true_iff in H.
  destruct H as [[[Hl Hcr] Hrr] Hobj]. apply Nat.eqb_eq in Hl. rewrite forall_lt_iff in Hcr, Hrr. apply Qltb_lt in Hobj.
  split; [|split; [apply objective_along | now apply along_improves]].
  split; [rewrite along_length; congruence|]. split.
  - intros j Hj. exact (dir_tol_step _ _ _ _ _ _ _ _ (Hcr j Hj) Ht (vnth_along _ _ _ _) (Hc j Hj)).
  - intros i Hi. exact (dir_tol_step _ _ _ _ _ _ _ _ (Hrr i Hi) Ht (activity_along _ _ _ _ _) (Hr i Hi)).
Qed.

(* feasibility is feasibility within tolerance 0 *)
Lemma feasible_tol_0 e p x : e == 0 -> (feasible_tol e p x <-> feasible p x).
Proof.
  intros E.
  assert (L : forall lo v, in_lo_tol e lo v = true <-> in_lo lo v)
    by (intros lo v; rewrite in_lo_tol_iff; destruct lo; simpl; [split; intros; lra | tauto]).
  assert (U : forall up v, in_up_tol e up v = true <-> in_up up v)
    by (intros up v; rewrite in_up_tol_iff; destruct up; simpl; [split; intros; lra | tauto]).
  unfold feasible_tol, feasible. split; intros (Hx & Hc & Hr); (split; [exact Hx | split]); intros k Hk;
    first [destruct (Hc k Hk) as [A B] | destruct (Hr k Hk) as [A B]]; split; first [apply L | apply U]; assumption.
Qed.

Theorem ray_sound p x0 r :
  feasible p x0 -> check_ray p r = true ->
  forall t, 0 <= t ->
    feasible p (along x0 r t) /\
    objective p (along x0 r t) == objective p x0 + t * dot (objvec p) r /\
    (0 < t -> strictly_better p (objective p (along x0 r t)) (objective p x0)).
Proof.
  intros Hf H t Ht. apply (feasible_tol_0 0) in Hf; [|reflexivity].
  destruct (ray_tol_sound 0 0 p x0 r Hf H t Ht) as (A & B & C). split; [|split; assumption].
  apply (feasible_tol_0 (0 + t * 0)); [ring | exact A].
Qed.

Theorem ray_unbounded p x0 r : feasible p x0 -> check_ray p r = true -> unbounded p.
Proof.
  intros Hf Hr. split; [now exists x0|].
  intros x Hx. exists (along x r 1).
  destruct (ray_sound p x r Hx Hr 1 ltac:(lra)) as (A & _ & C). split; auto. apply C. lra.
Qed.

Theorem verdicts_exclusive p :
  (forall x, optimal p x -> ~ infeasible p) /\
  (forall x, optimal p x -> ~ unbounded p) /\
  (unbounded p -> ~ infeasible p).
Proof.
  repeat split.
  - intros x [Hf _] Hi. exact (Hi x Hf).
  - intros x [Hf Ho] [_ Hu]. destruct (Hu x Hf) as (x' & Hf' & Hb).
    specialize (Ho x' Hf'). apply no_worse_sgn in Ho. apply strictly_better_sgn in Hb. lra.
  - intros [[x Hf] _] Hi. exact (Hi x Hf).
Qed.

Corollary certificates_exclusive p x y yf x0 r :
  (check_opt_exact p x y = true -> check_farkas p yf = true -> False) /\
  (check_opt_exact p x y = true -> feasible p x0 -> check_ray p r = true -> False) /\
  (check_farkas p yf = true -> feasible p x0 -> False).
Proof.
  destruct (verdicts_exclusive p) as (A & B & C). repeat split.
  - intros H1 H2. exact (A x (opt_cert_sound _ _ _ H1) (farkas_sound _ _ H2)).
  - intros H1 H2 H3. exact (B x (opt_cert_sound _ _ _ H1) (ray_unbounded _ _ _ H2 H3)).
  - intros H1 H2. exact (farkas_sound _ _ H1 x0 H2).
Qed.

