(* C03 - proofs about the models of RatGateModel.v:
     zero violations + consistent statuses  ==>  the proved exact optimality checker accepts (gate_zero_is_optimal),
     soundness of the verdict automaton of _optimizeRational, what the computed objective value is. *)
From Coq Require Import QArith ZArith List Bool Lia Lqa.
From SV Require Import Vec LP Cert Cert_Proofs RatGateModel.
Import ListNotations.
Local Open Scope Q_scope.

Lemma fold_nonneg {A} (f : Q -> A -> Q) :
  (forall a j, 0 <= a -> a <= f a j) -> forall l a, 0 <= a -> a <= fold_left f l a.
Proof.
  intros Hm l; induction l as [|i l IH]; intros a Ha; simpl; [lra|].
  pose proof (Hm a i Ha). specialize (IH (f a i) ltac:(lra)). lra.
Qed.

(* a running maximum that ends at zero: every step saw a zero, and a step that sees a zero establishes P *)
Lemma fold_max_zero_from {A} (f : Q -> A -> Q) (P : A -> Prop) :
  (forall a j, 0 <= a -> a <= f a j /\ (f a j <= 0 -> P j)) ->
  forall l a, 0 <= a -> fold_left f l a <= 0 -> forall j, In j l -> P j.
Proof.
  intros Hs. induction l as [|i l IH]; intros a Ha Hf j Hin; simpl in *; [tauto|].
  destruct (Hs a i Ha) as [HA HB].
  pose proof (fold_nonneg f (fun a j Ha => proj1 (Hs a j Ha)) l (f a i) ltac:(lra)) as M.
  destruct Hin as [<-|Hin]; [apply HB; lra|]. apply (IH (f a i)); auto; lra.
Qed.

Lemma fold_max_zero {A} (f : Q -> A -> Q) (P : A -> Prop) :
  (forall a j, a <= f a j) ->
  (forall a j, 0 <= a -> f a j <= 0 -> P j) ->
  forall l a, 0 <= a -> fold_left f l a <= 0 -> forall j, In j l -> P j.
Proof. intros Hm Hl. apply fold_max_zero_from. intros a j Ha. split; [apply Hm | now apply Hl]. Qed.

Lemma in_down n j : In j (down n) <-> (j < n)%nat.
Proof. unfold down. rewrite <- in_rev, in_seq. lia. Qed.

(* the four violations are running maxima over the indices below n, started at 0 *)
Lemma violation_zero (f : Q -> nat -> Q) (P : nat -> Prop) n :
  (forall a j, 0 <= a -> a <= f a j /\ (f a j <= 0 -> P j)) ->
  fold_left f (down n) 0 <= 0 -> forall j, (j < n)%nat -> P j.
Proof. intros Hs H j Hj. apply (fold_max_zero_from f P Hs _ 0 (Qle_refl 0) H). now apply in_down. Qed.

Lemma bound_minus_eq b v : bound_minus b v == b - v.
Proof.
  unfold bound_minus. destruct (Qeq_bool b 0) eqn:E; [|reflexivity].
  apply Qeq_bool_iff in E. rewrite E. ring.
Qed.

Lemma vs_eqb_eq a b : vs_eqb a b = true <-> a = b.
Proof. destruct a, b; simpl; split; intros; try discriminate; auto. Qed.

(* what a zero bounds / sides violation says of a value v with stored bounds lo, up: within the finite ones (lf, uf), and on
   the one the status names (sl, su) *)
Definition range_local (lf uf sl su : bool) (lo up v : Q) : Prop :=
  (lf = true -> lo <= v /\ (sl = true -> lo == v)) /\ (uf = true -> v <= up /\ (su = true -> up == v)).

(* one step of the bounds / sides loops; with sl, su a slack side that the status names counts as a violation too *)
Lemma range_step_spec (lf uf sl su : bool) a lo up v : 0 <= a ->
  let ml := bound_minus lo v in
  let mu := bound_minus up v in
  let a1 := if lf then if Qltb a ml then ml else if sl && Qltb ml (- a) then - ml else a else a in
  let a2 := if uf then if Qltb mu (- a1) then - mu else if su && Qltb a1 mu then mu else a1 else a1 in
  a <= a2 /\ (a2 <= 0 -> range_local lf uf sl su lo up v).
Proof.
  intros Ha ml mu. pose proof (bound_minus_eq lo v : ml == _) as El. pose proof (bound_minus_eq up v : mu == _) as Eu.
  clearbody ml mu. intros a1 a2.
  assert (L : a <= a1 /\ (a1 <= 0 -> lf = true -> lo <= v /\ (sl = true -> lo == v))).
  { subst a1. destruct lf; [|split; [lra|discriminate]]. destruct (Qltb_spec a ml); [split; intros; lra|].
    destruct sl; cbn [andb]; [destruct (Qltb_spec ml (- a))|]; split; intros; try split; intros; try lra; discriminate. }
  destruct L as [L1 L2].
  assert (U : a1 <= a2 /\ (a2 <= 0 -> uf = true -> v <= up /\ (su = true -> up == v))).
  { subst a2. destruct uf; [|split; [lra|discriminate]]. destruct (Qltb_spec mu (- a1)); [split; intros; lra|].
    destruct su; cbn [andb]; [destruct (Qltb_spec a1 mu)|]; split; intros; try split; intros; try lra; discriminate. }
  destruct U as [U1 U2]. split; [lra|]. intros H. split; [apply L2; lra | apply U2; exact H].
Qed.

Lemma bounds_step_spec g x a c : 0 <= a ->
  a <= bounds_step g x a c /\
  (bounds_step g x a c <= 0 ->
   range_local (lowerFinite (ctype g c)) (upperFinite (ctype g c)) false false
     (lo_val g (c_lo (colj (g_lp g) c))) (up_val g (c_up (colj (g_lp g) c))) (vnth x c)).
Proof. exact (range_step_spec _ _ false false a _ _ _). Qed.

Lemma sides_step_spec g sl a r : 0 <= a ->
  a <= sides_step g sl a r /\
  (sides_step g sl a r <= 0 ->
   range_local (lowerFinite (rtype g r)) (upperFinite (rtype g r)) (vs_eqb (rstat g r) ON_LOWER) (vs_eqb (rstat g r) ON_UPPER)
     (lo_val g (r_lhs (rowi (g_lp g) r))) (up_val g (r_rhs (rowi (g_lp g) r))) (vnth sl r)).
Proof. exact (range_step_spec _ _ _ _ a _ _ _). Qed.

(* what a zero sign violation says of one multiplier: fixed range, or the status permits its sign *)
Definition sign_local (mx : bool) (t : RangeType) (st : VarStatus) (v : Q) : Prop :=
  rt_is_fixed t = true \/
  ((v < 0 -> st = if mx then ON_LOWER else ON_UPPER) /\ (0 < v -> st = if mx then ON_UPPER else ON_LOWER)).

(* the two guards of sign_step: the status is not the one that permits the sign *)
Lemma status_forced mx st A B : (mx && negb (vs_eqb st A)) || (negb mx && negb (vs_eqb st B)) = false -> st = if mx then A else B.
Proof. destruct mx; cbn [andb orb negb]; rewrite ?orb_false_r; intros E; apply negb_false_iff in E; now apply vs_eqb_eq. Qed.

Lemma sign_step_spec mx t st v a : 0 <= a ->
  a <= sign_step mx t st v a /\ (sign_step mx t st v a <= 0 -> sign_local mx t st v).
Proof.
  intros Ha. unfold sign_step, sign_local. destruct (rt_is_fixed t); [split; [lra|auto]|].
  cbv zeta.
  pose proof (status_forced mx st ON_LOWER ON_UPPER) as C1. pose proof (status_forced mx st ON_UPPER ON_LOWER) as C2.
  set (c1 := (mx && negb (vs_eqb st ON_LOWER)) || (negb mx && negb (vs_eqb st ON_UPPER))) in *.
  set (c2 := (mx && negb (vs_eqb st ON_UPPER)) || (negb mx && negb (vs_eqb st ON_LOWER))) in *.
  set (a1 := if c1 && Qltb v (- a) then - v else a).
  assert (a <= a1 /\ (a1 <= 0 -> v < 0 -> c1 = false)) as [A1 B1].
  { subst a1. destruct c1; cbn [andb]; [|split; intros; [lra|reflexivity]].
    destruct (Qltb_spec v (- a)); split; intros; lra. }
  destruct c2; cbn [andb].
  - destruct (Qltb_spec a1 v) as [L|L].
    + split; [lra|]. intros H. exfalso. lra.
    + split; [lra|]. intros H. right. split; intros Hv; [apply C1, B1; auto | exfalso; lra].
  - split; [lra|]. intros H. right. split; intros Hv; [apply C1, B1; auto | now apply C2].
Qed.

Lemma sign_zero mx (ty : nat -> RangeType) (stt : nat -> VarStatus) v n :
  fold_left (fun a j => sign_step mx (ty j) (stt j) (vnth v j) a) (down n) 0 <= 0 ->
  forall j, (j < n)%nat -> sign_local mx (ty j) (stt j) (vnth v j).
Proof. apply violation_zero. intros a j. apply sign_step_spec. Qed.

Lemma violations_nonneg g s :
  0 <= bounds_violation g s /\ 0 <= sides_violation g s /\ 0 <= redcost_violation g s /\ 0 <= dual_violation g s.
Proof.
  unfold bounds_violation, sides_violation, redcost_violation, dual_violation.
  repeat split; apply fold_nonneg; try lra; intros a j Ha.
  - apply bounds_step_spec; auto.
  - apply sides_step_spec; auto.
  - apply sign_step_spec; auto.
  - apply sign_step_spec; auto.
Qed.

Lemma rt_eqb_eq a b : rt_eqb a b = true <-> a = b.
Proof. destruct a, b; simpl; split; intros; try discriminate; auto. Qed.

Lemma range_type_lower lo up : lowerFinite (range_type lo up) = is_some lo.
Proof. destruct lo as [l|], up as [u|]; simpl; auto. destruct (Qeq_bool l u); auto. Qed.
Lemma range_type_upper lo up : upperFinite (range_type lo up) = is_some up.
Proof. destruct lo as [l|], up as [u|]; simpl; auto. destruct (Qeq_bool l u); auto. Qed.
Lemma range_type_fixed lo up : rt_is_fixed (range_type lo up) = true -> exists l u, lo = Some l /\ up = Some u /\ l == u.
Proof.
  destruct lo as [l|], up as [u|]; simpl; try discriminate.
  destruct (Qeq_bool l u) eqn:E; simpl; try discriminate. intros _. exists l, u. repeat split; auto. now apply Qeq_bool_iff.
Qed.

(* one variable (column with its value, or row with its activity): feasibility and complementary slackness, for any
   representative v' of the value and k' of the signed multiplier *)
Lemma var_ok (g : gate) (mx : bool) (lo up : option Q) (t : RangeType) (st : VarStatus) (v k : Q) :
  t = range_type lo up ->
  (lowerFinite t = true -> lo_val g lo <= v) ->
  (upperFinite t = true -> v <= up_val g up) ->
  sign_local mx t st k ->
  (st = ON_LOWER -> tight_lo lo v = true) ->
  (st = ON_UPPER -> tight_up up v = true) ->
  forall v' k', v == v' -> (if mx then -1 else 1) * k == k' -> kkt_at k' lo up v'.
Proof.
  intros -> HL HU HS SL SU v' k' Ev Ek. rewrite range_type_lower in HL. rewrite range_type_upper in HU.
  assert (in_lo lo v) as IL by (destruct lo; simpl in *; auto).
  assert (in_up up v) as IU by (destruct up; simpl in *; auto).
  split; [now rewrite <- Ev | split; [now rewrite <- Ev |]].
  apply (cs_ok_ext _ _ _ _ _ _ Ek Ev), cs_ok_spec. destruct HS as [F|[S1 S2]].
  - apply range_type_fixed in F as (l & u & -> & -> & E). simpl in *. specialize (HL eq_refl). specialize (HU eq_refl).
    split; intros _; lra.
  - split; intros K.
    + assert (T : tight_lo lo v = true) by (apply SL; destruct mx; [apply S1 | apply S2]; lra).
      destruct lo; [now apply Qeq_bool_iff | discriminate].
    + assert (T : tight_up up v = true) by (apply SU; destruct mx; [apply S2 | apply S1]; lra).
      destruct up; [now apply Qeq_bool_iff | discriminate].
Qed.

(* a finite side equal to the value is tight (tight_lo and tight_up are the same function; b: what an infinite side is stored as) *)
Lemma tight_some (o : option Q) v b : is_some o = true -> match o with Some l => l | None => b end == v -> tight_lo o v = true.
Proof. destruct o; [intros _; apply Qeq_bool_iff | discriminate]. Qed.

(* the gate: zero violations + consistent statuses ==> the exact optimality checker accepts *)
Theorem gate_zero_is_optimal g s :
  gate_consistent g s = true -> gate_zero g s = true ->
  check_opt_exact (g_lp g) (s_primal s) (s_dual s) = true.
Proof.
  unfold gate_consistent, gate_zero, types_match. cbv zeta. rewrite !andb_true_iff, !forall_lt_iff, !Qle_bool_iff, !Nat.eqb_eq.
  intros [[[[[[Lx Ly] [TC TR]] SC] SR] HS] HD] [[[ZB ZS] ZR] ZD].
  apply check_opt_exact_vars; [exact Lx | exact Ly | intros j Hj | intros i Hi].
  - specialize (TC j Hj). apply rt_eqb_eq in TC. destruct (violation_zero _ _ _ (bounds_step_spec g (s_primal s)) ZB j Hj) as [B1 B2].
    specialize (SC j Hj). unfold col_status_ok in SC. specialize (HD j Hj). apply Qeq_bool_iff in HD.
    apply (var_ok g _ _ _ _ _ _ (vnth (s_redcost s) j) TC (fun F => proj1 (B1 F)) (fun F => proj1 (B2 F)) (sign_zero _ (ctype g) (cstat g) _ _ ZR j Hj)).
    + intros E. now rewrite E in SC.
    + intros E. now rewrite E in SC.
    + reflexivity.
    + rewrite HD. reflexivity.
  - specialize (TR i Hi). apply rt_eqb_eq in TR. destruct (violation_zero _ _ _ (sides_step_spec g (s_slacks s)) ZS i Hi) as [B1 B2].
    specialize (SR i Hi). unfold row_status_ok in SR. specialize (HS i Hi). apply Qeq_bool_iff in HS.
    apply (var_ok g _ _ _ _ _ (vnth (s_slacks s) i) _ TR (fun F => proj1 (B1 F)) (fun F => proj1 (B2 F)) (sign_zero _ (rtype g) (rstat g) _ _ ZD i Hi)).
    + intros E. rewrite E in SR. apply (tight_some _ _ (- g_infty g) SR), B1; [rewrite TR, range_type_lower; exact SR | now rewrite E].
    + intros E. rewrite E in SR. apply (tight_some _ _ (g_infty g) SR), B2; [rewrite TR, range_type_upper; exact SR | now rewrite E].
    + exact HS.
    + reflexivity.
Qed.

Corollary gate_zero_optimal g s :
  gate_consistent g s = true -> gate_zero g s = true -> optimal (g_lp g) (s_primal s).
Proof. intros H1 H2. eapply opt_cert_sound, gate_zero_is_optimal; eauto. Qed.

(* the hypothesis "range types match the bounds" is needed.
   With a stale (mirrored) row type the four violations are zero on a point that violates the row: this is the state the
   history family of checks/C03.py looks for after every solve (_rowTypes / _colTypes against the types of the LP held). *)
(* min x  s.t.  1/3 x >= 1/7,  x >= 0;  the row type is mirrored (UPPER instead of LOWER) *)
Definition stale_lp : lp :=
  {| maximize := false; offset := 0;
     cols := [ {| c_obj := 1; c_lo := Some 0; c_up := None |} ];
     rows := [ {| r_lhs := Some (1 # 7); r_coef := [1 # 3]; r_rhs := None |} ] |}.
Definition stale_gate : gate :=
  {| g_lp := stale_lp; g_infty := 10 ^ 100; g_ctypes := [RT_LOWER]; g_rtypes := [RT_UPPER];
     g_cstat := [ON_LOWER]; g_rstat := [BASIC] |}.
Definition stale_sol : rsol := {| s_primal := [0]; s_slacks := [0]; s_dual := [0]; s_redcost := [1] |}.

Lemma gate_needs_matching_types :
  exists g s,
    gate_zero g s = true /\
    forall_lt (ncols (g_lp g)) (col_status_ok g (s_primal s)) = true /\
    forall_lt (nrows (g_lp g)) (row_status_ok g) = true /\
    forall_lt (nrows (g_lp g)) (fun i => Qeq_bool (vnth (s_slacks s) i) (activity (g_lp g) i (s_primal s))) = true /\
    forall_lt (ncols (g_lp g)) (fun j => Qeq_bool (vnth (s_redcost s) j) (redcost (g_lp g) (s_dual s) j)) = true /\
    types_match g = false /\
    feasible_b (g_lp g) (s_primal s) = false /\
    check_opt_exact (g_lp g) (s_primal s) (s_dual s) = false.
Proof. exists stale_gate, stale_sol. repeat split; vm_compute; reflexivity. Qed.

Lemma dot_map_opp u v : dot u (map Qopp v) == - dot u v.
Proof.
  revert v; induction u as [|a u IH]; intros [|b v]; simpl; try reflexivity. rewrite IH. ring.
Qed.

(* what the code computes is c.x: the objective offset is missing *)
Theorem model_objval_is_cx p x : model_objval p x == dot (objvec p) x.
Proof.
  unfold model_objval, max_obj. destruct (maximize p).
  - apply dot_comm.
  - rewrite dot_map_opp, dot_comm. ring.
Qed.

Theorem objective_is_cx_plus_offset_partial p x : model_objval p x == objective p x - offset p.
Proof. unfold objective. rewrite model_objval_is_cx. ring. Qed.

Theorem objective_is_cx_plus_offset_iff p x : model_objval p x == objective p x <-> offset p == 0.
Proof. rewrite objective_is_cx_plus_offset_partial. split; intros; lra. Qed.

(* The verdict automaton *)

Definition ray_of (r : aux_res) : bool := let '(c, _, _, _) := r in c.
Definition certified : aux_res := (true, false, false, false).     (* certificate, not stopped, no error *)
Definition refuted : aux_res := (false, false, false, false).      (* no certificate, not stopped, no error *)

(* what justifies a final status, read off the log (newest event first) *)
Definition justified (k : cfg) (v : status) (log : list event) : Prop :=
  (v = S_OPTIMAL ->
     exists a bl log', log = EOpt a bl :: log' /\ clean a = true /\ a_pf a = true /\ a_df a = true) /\
  (v = S_INFEASIBLE ->
     exists a t log', feas_post k a t = certified /\
       (log = EFeas a t :: log' \/ exists ua ut st si, log = EUnbd ua ut :: EFeas a t :: log' /\ unbd_post k ua ut = (ray_of (unbd_post k ua ut), st, si, false))) /\
  (v = S_UNBOUNDED ->
     (exists a t log', log = EFeas a t :: log' /\ feas_post k a t = refuted) /\
     (exists a t, last_unbd log = Some (a, t) /\ unbd_post k a t = certified)) /\
  (is_verdict v = true -> exists a, last_opt log = Some a /\ clean a = true).

Lemma justified_nonverdict k v log : is_verdict v = false -> justified k v log.
Proof. intros H. unfold justified. split; [|split; [|split]]; intros E; try (rewrite E in H; discriminate); congruence. Qed.

Lemma unbd_post_ray k a t r : unbd_post k a t = r -> ray_of r = true -> r = certified /\ clean a = true.
Proof.
  unfold unbd_post, clean. intros <-.
  destruct (a_st a), (a_si a); cbn [orb]; try (simpl; discriminate).
  destruct (a_err a); cbn [orb]; try (simpl; discriminate).
  destruct (a_unb a || a_inf a || negb (a_pf a) || negb (a_df a)); try (simpl; discriminate).
  simpl. intros ->. simpl. auto.
Qed.

(* between passes: hasUnboundedRay is what the last unboundedness test in the log reported, and no verdict is set *)
Definition inv (k : cfg) (s : vstate) (log : list event) : Prop :=
  v_ray s = match last_unbd log with Some (a, t) => ray_of (unbd_post k a t) | None => false end
  /\ is_verdict (v_status s) = false.

(* the last optimisation answer in the log carries no error or stop flag *)
Definition opt_ok (log : list event) : Prop := exists a, last_opt log = Some a /\ clean a = true.

(* what one pass of the loop body establishes: a final status that the log justifies, or inv again *)
Definition good (k : cfg) (r : flow * vstate * list event * list event) : Prop :=
  let '(fl, s', _, log') := r in
  match fl with
  | Break => justified k (v_status s') log'
  | Continue => inv k s' log'
  end.

Lemma inv_cons_other k s e log :
  inv k s log -> match e with EUnbd _ _ => False | _ => True end -> inv k s (e :: log).
Proof. intros [A B] H. split; auto. destruct e; simpl; try tauto; auto. Qed.

(* no verdict has been set: the pass may end either way *)
Lemma good_of_inv k fl s evs log : inv k s log -> good k (fl, s, evs, log).
Proof. intros I. destruct fl; [apply justified_nonverdict, I | exact I]. Qed.

Lemma boost_or_good k o s evs log r :
  inv k s log ->
  boost_or k o s evs log = Some r -> good k r.
Proof.
  unfold boost_or. intros I H. destruct (k_boosting k).
  - destruct evs as [|[| | |ok|] evs']; try discriminate. injection H as <-. now apply good_of_inv, inv_cons_other.
  - injection H as <-. now apply good_of_inv.
Qed.

Lemma inv_status k s log t : inv k s log -> is_verdict t = false -> inv k (set_status s t) log.
Proof. intros [A B] H. split; auto. Qed.

Lemma break_status_good k s t evs log r :
  is_verdict t = false -> Some (Break, set_status s t, evs, log) = Some r -> good k r.
Proof. intros V H. injection H as <-. now apply justified_nonverdict. Qed.

(* the three guards behind every procedure call: error, stopped by time, stopped by iterations; each leaves the loop with
   a status that is no verdict *)
Lemma guards_good k s s' evs log r (err st si : bool) (cont : step_res) :
  inv k s log ->
  (err = false -> st = false -> si = false -> cont = Some r -> good k r) ->
  (if err then boost_or k Break (set_status s S_ERROR) evs log
   else if st then Some (Break, set_status s' S_ABORT_TIME, evs, log)
   else if si then Some (Break, set_status s' S_ABORT_ITER, evs, log) else cont) = Some r -> good k r.
Proof.
  intros I C H. destruct err; [eapply boost_or_good; [|exact H]; now apply inv_status|].
  destruct st; [exact (break_status_good _ _ S_ABORT_TIME _ _ _ eq_refl H)|].
  destruct si; [exact (break_status_good _ _ S_ABORT_ITER _ _ _ eq_refl H) | now apply C].
Qed.

Lemma conclude_good k inf s evs log r fa ft log0 :
  inv k s log -> opt_ok log ->
  log = EFeas fa ft :: log0 \/ (exists ua ut st si, log = EUnbd ua ut :: EFeas fa ft :: log0 /\ unbd_post k ua ut = (ray_of (unbd_post k ua ut), st, si, false) /\ inf = true) ->
  feas_post k fa ft = (inf, false, false, false) ->
  conclude k inf s evs log = Some r -> good k r.
Proof.
  intros I O HL HF H. unfold conclude in H.
  destruct inf.
  - injection H as <-. unfold good, justified. simpl. repeat split; try discriminate; auto.
    intros _. exists fa, ft, log0. split; auto.
    destruct HL as [->|(ua & ut & st & si & -> & E & _)]; auto. right. exists ua, ut, st, si. auto.
  - destruct (v_ray s) eqn:R.
    + injection H as <-.
      destruct HL as [->|(ua & ut & st & si & _ & _ & F)]; [|discriminate].
      unfold good, justified. simpl. repeat split; try discriminate; auto.
      * exists fa, ft, log0. auto.
      * destruct I as [I1 _]. rewrite R in I1. simpl in I1.
        destruct (last_unbd log0) as [[a t]|] eqn:L; [|discriminate].
        exists a, t. split; auto. symmetry in I1. now apply (unbd_post_ray k a t _ eq_refl) in I1.
    + eapply boost_or_good; eauto.
Qed.

Lemma opt_ok_cons e log : opt_ok log -> match e with EOpt _ _ => False | _ => True end -> opt_ok (e :: log).
Proof. intros [a [A B]] H. exists a. destruct e; simpl; try tauto; auto. Qed.

Lemma inv_unbd k s a t log ray st si err : unbd_post k a t = (ray, st, si, err) ->
  inv k s log -> inv k (set_ray s ray) (EUnbd a t :: log).
Proof. intros E [_ H]. split; [simpl; now rewrite E | exact H]. Qed.

Lemma unb_branch_good k s evs log r :
  inv k s log -> opt_ok log -> unb_branch k s evs log = Some r -> good k r.
Proof.
  intros I O H. unfold unb_branch in H.
  destruct evs as [|[| ua tau | | |] evs2]; try discriminate.
  destruct (unbd_post k ua tau) as [[[ray ust] usi] uerr] eqn:EU.
  pose proof (inv_unbd _ _ _ _ _ _ _ _ _ EU I) as I2.
  revert H. apply (guards_good k (set_ray s ray)); [exact I2|]. intros _ _ _ H.
  destruct evs2 as [|[| | fa ftau | |] evs3]; try discriminate.
  destruct (feas_post k fa ftau) as [[[inf fst_] fsi] ferr] eqn:EF.
  assert (inv k (set_unbNC (set_ray s ray) (negb ray)) (EFeas fa ftau :: EUnbd ua tau :: log)) as I4.
  { apply inv_cons_other; auto. }
  revert H. apply (guards_good k _ _ _ _ _ _ _ _ _ I4). intros -> -> -> H.
  eapply conclude_good; [exact I4| | | exact EF | exact H].
  - repeat (apply opt_ok_cons; simpl; auto).
  - left. reflexivity.
Qed.

Lemma inf_branch_good k s evs log r :
  inv k s log -> opt_ok log -> inf_branch k s evs log = Some r -> good k r.
Proof.
  intros I O H. unfold inf_branch in H.
  destruct evs as [|[| | fa ftau | |] evs2]; try discriminate.
  destruct (feas_post k fa ftau) as [[[inf fst_] fsi] ferr] eqn:EF.
  assert (inv k s (EFeas fa ftau :: log)) as I2 by (apply inv_cons_other; auto).
  revert H. apply (guards_good k _ _ _ _ _ _ _ _ _ I2). intros -> -> -> H.
  assert (opt_ok (EFeas fa ftau :: log)) as O2 by (apply opt_ok_cons; simpl; auto).
  destruct (inf && k_testdualinf k) eqn:T.
  - apply andb_true_iff in T as [-> _].
    destruct evs2 as [|[| ua tau | | |] evs3]; try discriminate.
    destruct (unbd_post k ua tau) as [[[ray ust] usi] uerr] eqn:EU.
    pose proof (inv_unbd k (set_infNC s (negb true)) _ _ _ _ _ _ _ EU I2) as I4.
    destruct uerr. { eapply boost_or_good; [|exact H]. now apply inv_status. }
    eapply conclude_good; [exact I4| | | exact EF | exact H].
    + apply opt_ok_cons; simpl; auto.
    + right. exists ua, tau, ust, usi. rewrite EU. simpl. auto.
  - eapply (conclude_good k inf (set_infNC s (negb inf))); [exact I2 | exact O2 | | exact EF | exact H]. left. reflexivity.
Qed.

Lemma loop_body_good k s evs log r :
  inv k s log -> loop_body k s evs log = Some r -> good k r.
Proof.
  intros I H. unfold loop_body in H.
  destruct evs as [|[a blim | | | |] evs1]; try discriminate.
  assert (inv k s (EOpt a blim :: log)) as I1 by (apply inv_cons_other; simpl; auto).
  destruct (a_err a && blim). { exact (break_status_good _ _ S_ERROR _ _ _ eq_refl H). }
  revert H. apply (guards_good k s s); [exact I1|]. intros Eerr Est Esi H.
  assert (clean a = true) as C by (unfold clean; now rewrite Eerr, Est, Esi).
  assert (opt_ok (EOpt a blim :: log)) as O by (exists a; auto).
  destruct (a_unb a && negb (v_unbNC s)). { eapply unb_branch_good; eauto. }
  destruct (a_inf a && negb (v_infNC s)). { eapply inf_branch_good; eauto. }
  destruct (a_pf a && a_df a) eqn:P.
  - injection H as <-. apply andb_true_iff in P as [P1 P2].
    unfold good, justified. simpl. repeat split; try discriminate; auto.
    intros _. exists a, blim, log. auto.
  - eapply boost_or_good; [exact I1|exact H].
Qed.

Lemma verdict_loop_sound k : forall fuel s evs log s' log',
  inv k s log -> verdict_loop fuel k s evs log = Some (s', log') -> justified k (v_status s') log'.
Proof.
  induction fuel as [|fuel IH]; intros s evs log s' log' I H; simpl in H; try discriminate.
  destruct (loop_body k s evs log) as [[[[fl s1] evs1] log1]|] eqn:B; try discriminate.
  pose proof (loop_body_good k s evs log _ I B) as G. unfold good in G.
  destruct fl.
  - injection H as <- <-. apply G.
  - destruct evs1 as [|[| | | |st si] evs2]; try discriminate.
    assert (inv k s1 (EStop st si :: log1)) as I2 by (apply inv_cons_other; simpl; auto).
    destruct (st || si).
    + injection H as <- <-. apply justified_nonverdict, I2.
    + eapply IH; eauto.
Qed.

Theorem verdict_automaton_sound k script v log :
  optimize_rational k script = Some (v, log) -> justified k v log.
Proof.
  unfold optimize_rational. intros H.
  destruct (verdict_loop (S (length script)) k init_state script []) as [[s l]|] eqn:E; try discriminate.
  injection H as <- <-. eapply verdict_loop_sound; [|exact E]. split; reflexivity.
Qed.

(* consequences spelled out: stopped / error answers never become one of the three verdicts *)
Corollary verdict_needs_clean_answer k script v log a :
  optimize_rational k script = Some (v, log) -> last_opt log = Some a -> clean a = false -> is_verdict v = false.
Proof.
  intros H L C. destruct (is_verdict v) eqn:V; auto.
  destruct (verdict_automaton_sound _ _ _ _ H) as (_ & _ & _ & J). destruct (J V) as (a' & L' & C'). congruence.
Qed.
