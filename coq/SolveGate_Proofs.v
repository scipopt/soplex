(* Proofs about the in-tree verification gate (SolveGateModel.v): what a passed gate implies, what it leaves open. *)
From Coq Require Import QArith Qabs List Bool Lia Lqa.
From SV Require Import Vec LP Cert Cert_Proofs RatGateModel RatGate_Proofs SolveGateModel.
Import ListNotations.
Local Open Scope Q_scope.

Lemma add_viol_lt t a v : 0 < t -> (fst (add_viol a v) < t <-> fst a < t /\ v < t).
Proof.
  intros Ht. unfold add_viol. destruct (Qltb_spec 0 v); [cbn; destruct (Qltb_spec (fst a) v)|]; split; intros G; try split; lra.
Qed.

Lemma fold_lt {A} (step : Q * Q -> A -> Q * Q) (ok : A -> Prop) t :
  (forall a i, fst (step a i) < t <-> fst a < t /\ ok i) ->
  forall L a, fst (fold_left step L a) < t <-> fst a < t /\ Forall ok L.
Proof.
  intros Hs. induction L as [|i L IH]; intros a; cbn.
  - split; [intros H; split; [exact H | constructor] | intros [H _]; exact H].
  - rewrite IH, Hs. split.
    + intros [[H1 H2] H3]. split; [exact H1 | constructor; assumption].
    + intros [H1 H2]. inversion H2; subst. repeat split; assumption.
Qed.

Lemma Forall_down n (P : nat -> Prop) : Forall P (down n) <-> forall i, (i < n)%nat -> P i.
Proof. rewrite Forall_forall. split; intros H i Hi; apply H; apply in_down; exact Hi. Qed.

(* v misses neither end of [lo, up] by t or more *)
Definition range_ok (t : Q) (lo up : option Q) (v : Q) : Prop :=
  match lo with Some l => l - v < t | None => True end /\ match up with Some u => v - u < t | None => True end.

Lemma range_step_lt t lo up v a : 0 < t -> (fst (range_step lo up v a) < t <-> fst a < t /\ range_ok t lo up v).
Proof.
  intros Ht. unfold range_step, range_ok. destruct lo as [l|], up as [u|]; rewrite ?add_viol_lt by exact Ht; tauto.
Qed.

(* the multiplier v has a sign the status forbids by less than t only *)
Definition sign_ok (t : Q) (maxi : bool) (st : VarStatus) (v : Q) : Prop :=
  let k := if maxi then - v else v in
  (allows_neg st = false -> - k < t) /\ (allows_pos st = false -> k < t).

Lemma sign_step_lt t maxi st v a : 0 < t -> (fst (sign_step maxi st v a) < t <-> fst a < t /\ sign_ok t maxi st v).
Proof.
  intros Ht. unfold sign_step, sign_ok. cbv zeta.
  destruct (allows_neg st), (allows_pos st); rewrite ?add_viol_lt by exact Ht; intuition congruence.
Qed.

Lemma Qle_bool_false a b : Qle_bool a b = false <-> b < a.
Proof. rewrite <- Qltb_lt. unfold Qltb. now rewrite negb_true_iff. Qed.

(* a violation function is below the tolerance exactly when every entry it visits is *)
Lemma viol_bit_spec (step : Q * Q -> nat -> Q * Q) (ok : nat -> Prop) n t :
  (forall a i, fst (step a i) < t <-> fst a < t /\ ok i) -> 0 < t ->
  (Qle_bool t (fst (fold_left step (down n) (0, 0))) = false <-> forall i, (i < n)%nat -> ok i).
Proof.
  intros Hs Ht. rewrite Qle_bool_false, (fold_lt step ok t Hs), Forall_down. cbn. tauto.
Qed.

(* the meaning of each bit: exact characterisations (soundness AND completeness of each violation function) *)
Theorem gate_bits_spec tf t_o p x y d rst cst : 0 < tf -> 0 < t_o ->
    (Qle_bool tf (fst (bound_violation p x)) = false <->
       forall j, (j < ncols p)%nat -> range_ok tf (c_lo (colj p j)) (c_up (colj p j)) (vnth x j)) /\
    (Qle_bool tf (fst (row_violation p x)) = false <->
       forall i, (i < nrows p)%nat -> range_ok tf (r_lhs (rowi p i)) (r_rhs (rowi p i)) (activity p i x)) /\
    (Qle_bool t_o (fst (dual_violation p rst y)) = false <->
       forall i, (i < nrows p)%nat -> sign_ok t_o (maximize p) (stat rst i) (vnth y i)) /\
    (Qle_bool t_o (fst (redcost_violation p cst d)) = false <->
       forall j, (j < ncols p)%nat -> sign_ok t_o (maximize p) (stat cst j) (vnth d j)).
Proof.
  intros H1 H2. split; [|split; [|split]]; apply viol_bit_spec; auto; intros a k;
    first [apply range_step_lt | apply sign_step_lt]; assumption.
Qed.

Lemma sgn_mul p v : sgn p * v == (if maximize p then - v else v).
Proof. unfold sgn. destruct (maximize p); ring. Qed.

(* a status that admits a sign of the multiplier names the bound which that sign needs *)
Lemma status_near tcc st lo up v : status_consistent tcc st lo up v = true ->
  (allows_pos st = true -> near_lo tcc lo v = true) /\ (allows_neg st = true -> near_up tcc up v = true).
Proof. destruct st; cbn; rewrite ?andb_true_iff; intros H; split; intros A; try discriminate A; tauto. Qed.

Lemma cs_from_sign t_o ed tcc p st lo up v m :
  0 <= ed -> sign_ok t_o (maximize p) st m -> status_consistent tcc st lo up v = true ->
  cs_tol (t_o + ed) tcc (sgn p * m) lo up v = true.
Proof.
  intros Hed [Hn Hp] Hc. apply status_near in Hc as [Cp Cn]. unfold cs_tol. pose proof (sgn_mul p m) as E. cbv zeta in Hn, Hp.
  apply andb_true_iff. split.
  - destruct (Qltb_spec (t_o + ed) (sgn p * m)) as [L|]; [|reflexivity].
    destruct (allows_pos st); [now apply Cp | specialize (Hp eq_refl); lra].
  - destruct (Qltb_spec (sgn p * m) (- (t_o + ed))) as [L|]; [|reflexivity].
    destruct (allows_neg st); [now apply Cn | specialize (Hn eq_refl); lra].
Qed.

Lemma range_ok_tol t lo up v : range_ok t lo up v -> in_lo_tol t lo v = true /\ in_up_tol t up v = true.
Proof. rewrite in_lo_tol_iff, in_up_tol_iff. intros [A B]. split; [destruct lo | destruct up]; auto; lra. Qed.

(* If the gate of _verifySolutionReal passes (all four violations below their tolerance) and, in addition, the three things
   it does NOT check hold - the slack vector is the row activity up to es, the reduced-cost vector is c - A^T y up to ed, every
   non-basic status names a bound the value sits at within tc - and the reported objective is c.x + offset up to tv(1+|v|),
   then the answer is a certificate accepted by check_opt_tol with tolerances (tf + es, to + ed, tc, tv): every clause of
   property C01 holds for the LP as the user entered it. *)
Theorem gate_implies_cert tf t_o es ed tcc tvv p x s y d v rst cst :
  0 < tf -> 0 < t_o -> 0 <= es -> 0 <= ed ->
  length x = ncols p -> length d = ncols p -> length s = nrows p -> length y = nrows p ->
  gate_passes tf t_o p x y d rst cst = true ->
  (forall i, (i < nrows p)%nat -> Qabs_le (vnth s i - activity p i x) es = true) ->
  (forall j, (j < ncols p)%nat -> Qabs_le (vnth d j - redcost p y j) ed = true) ->
  (forall j, (j < ncols p)%nat -> status_consistent tcc (stat cst j) (c_lo (colj p j)) (c_up (colj p j)) (vnth x j) = true) ->
  (forall i, (i < nrows p)%nat -> status_consistent tcc (stat rst i) (r_lhs (rowi p i)) (r_rhs (rowi p i)) (vnth s i) = true) ->
  Qabs_le (v - objective p x) (tvv * (1 + Qabs v)) = true ->
  check_opt_tol {| tp := tf + es; td := t_o + ed; tc := tcc; tv := tvv |} p x s y d v = true.
Proof.
  intros Htf Hto Hes Hed Lx Ld Ls Ly Hg Hs Hd Hcc Hcr Hv.
  unfold gate_passes, verify_bits in Hg.
  apply negb_true_iff in Hg. apply orb_false_iff in Hg as [Hg Hb4]. apply orb_false_iff in Hg as [Hg Hb3].
  apply orb_false_iff in Hg as [Hb1 Hb2].
  destruct (gate_bits_spec tf t_o p x y d rst cst Htf Hto) as ([B1 _] & [B2 _] & [B3 _] & [B4 _]).
  specialize (B1 Hb1). specialize (B2 Hb2). specialize (B3 Hb3). specialize (B4 Hb4).
  assert (Hs' : forall i, (i < nrows p)%nat -> - es <= vnth s i - activity p i x <= es) by (intros i Hi; apply Qabs_le_iff, Hs, Hi).
  apply check_opt_tol_iff. split; [auto|]. constructor; cbn [tp td tc tv]; try intros k Hk.
  - apply (in_tol_near _ _ _ _ (vnth x k)); [lra | apply range_ok_tol, B1, Hk].
  - (* sides, judged on the slack vector *)
    apply (in_tol_near _ _ _ _ (activity p k x)); [apply Hs', Hk | apply range_ok_tol, B2, Hk].
  - specialize (Hs' k Hk). lra.
  - specialize (Hd k Hk). apply Qabs_le_iff in Hd. lra.
  - apply cs_from_sign with (st := stat cst k); auto.
  - apply cs_from_sign with (st := stat rst k); auto.
  - now apply Qabs_le_iff.
Qed.

(* The converse on the primal side: the gate rejects every point that violates a bound or a side by the tolerance or more
   (so no such point is ever stored as OPTIMAL after a verified store). *)
Theorem gate_rejects_primal_violation tf t_o p x y d rst cst :
  0 < tf ->
  (exists j l, (j < ncols p)%nat /\ c_lo (colj p j) = Some l /\ tf <= l - vnth x j) \/
  (exists j u, (j < ncols p)%nat /\ c_up (colj p j) = Some u /\ tf <= vnth x j - u) \/
  (exists i l, (i < nrows p)%nat /\ r_lhs (rowi p i) = Some l /\ tf <= l - activity p i x) \/
  (exists i u, (i < nrows p)%nat /\ r_rhs (rowi p i) = Some u /\ tf <= activity p i x - u) ->
  gate_passes tf t_o p x y d rst cst = false.
Proof.
  intros Htf H. unfold gate_passes, verify_bits. apply negb_false_iff.
  destruct (Qle_bool tf (fst (bound_violation p x))) eqn:B1; [reflexivity|].
  destruct (Qle_bool tf (fst (row_violation p x))) eqn:B2; [cbn; reflexivity|].
  exfalso. destruct (gate_bits_spec tf tf p x y d rst cst Htf Htf) as ([R1 _] & [R2 _] & _).
  specialize (R1 B1). specialize (R2 B2).
  destruct H as [(j & l & Hj & E & V) | [(j & u & Hj & E & V) | [(i & l & Hi & E & V) | (i & u & Hi & E & V)]]].
  - destruct (R1 j Hj) as [H1 _]. rewrite E in H1. lra.
  - destruct (R1 j Hj) as [_ H1]. rewrite E in H1. lra.
  - destruct (R2 i Hi) as [H1 _]. rewrite E in H1. lra.
  - destruct (R2 i Hi) as [_ H1]. rewrite E in H1. lra.
Qed.

Definition ex_gate_lp : lp :=
  {| maximize := false; offset := 0; cols := [ {| c_obj := 1; c_lo := Some 0; c_up := Some 10 |} ]; rows := [] |}.
(* the gate is not the certificate: it trusts the basis statuses *)
Theorem gate_alone_is_not_a_certificate :
  gate_passes (1 # 1000000) (1 # 1000000) ex_gate_lp [5] [] [1] [] [ON_LOWER] = true /\
  check_opt_tol {| tp := 1 # 1000000; td := 1 # 1000000; tc := 1 # 10000; tv := 1 # 10000000 |} ex_gate_lp [5] [] [] [1] 5 = false /\
  ~ optimal ex_gate_lp [5].
Proof.
  split; [vm_compute; reflexivity | split; [vm_compute; reflexivity |]].
  intros [_ H]. specialize (H [0]). assert (F : feasible ex_gate_lp [0]).
  { apply feasible_b_iff. vm_compute. reflexivity. }
  specialize (H F). vm_compute in H. apply H. reflexivity.
Qed.
