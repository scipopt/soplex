(* List facts that the standard library of this Coq version lacks: NoDup of appended and filtered lists; nth, firstn,
   skipn and last; map, combine and forallb over aligned lists; Forall2; positional update [set_nth]; removal of one
   position by moving the last element into the hole [remove_pos] ("idx[n] = idx[--num]", the idiom of IdxSet::remove,
   SVectorBase::remove and DataSet::remove); removal of a range of positions by moving a block from the end. *)
From Coq Require Import List Bool Arith Lia Permutation Sorted.
Import ListNotations.

(* NoDup *)
Lemma NoDup_snoc {A} (l : list A) a : ~ In a l -> NoDup l -> NoDup (l ++ [a]).
Proof.
  intros Hn Hd. apply (Permutation_NoDup (l := a :: l)); [apply Permutation_cons_append | constructor; assumption].
Qed.

Lemma NoDup_app_iff {A} (a b : list A) :
  NoDup (a ++ b) <-> NoDup a /\ NoDup b /\ (forall x, In x a -> ~ In x b).
Proof.
  induction a as [|x a IH]; cbn.
  - split; [intros H; split; [constructor | split; [exact H | intros x []]] | intros (_ & H & _); exact H].
  - rewrite !NoDup_cons_iff, IH, in_app_iff. split.
    + intros (Hx & Ha & Hb & Hd). split; [split; [tauto | exact Ha]|]. split; [exact Hb|].
      intros y [<-|Hy]; [tauto | apply Hd; exact Hy].
    + intros ((Hx & Ha) & Hb & Hd). split; [|split; [exact Ha | split; [exact Hb|]]].
      * intros [H|H]; [exact (Hx H) | exact (Hd x (or_introl eq_refl) H)].
      * intros y Hy. apply Hd. right. exact Hy.
Qed.

Lemma NoDup_map_filter {A B} (f : A -> B) (p : A -> bool) l : NoDup (map f l) -> NoDup (map f (filter p l)).
Proof.
  induction l as [|a l IH]; cbn [map filter]; intros H; [constructor|]. inversion H as [|? ? Hn Hd]; subst.
  destruct (p a); cbn [map]; [|apply IH; exact Hd]. constructor; [|apply IH; exact Hd].
  intros C. apply Hn. apply in_map_iff in C. destruct C as (x & Ex & Hx). apply filter_In in Hx.
  apply in_map_iff. exists x. tauto.
Qed.

Lemma StronglySorted_lt_NoDup l : StronglySorted lt l -> NoDup l.
Proof.
  induction 1 as [|a l Hs IH Hall]; constructor; [|exact IH].
  intros C. rewrite Forall_forall in Hall. apply Hall in C. lia.
Qed.

(* the first occurrence of an element *)
Lemma in_split_first {A} (eq_dec : forall x y : A, {x = y} + {x <> y}) (l : list A) a :
  In a l -> exists l1 l2, l = l1 ++ a :: l2 /\ ~ In a l1.
Proof.
  induction l as [|x l IH]; intros H; [destruct H|]. destruct (eq_dec x a) as [->|E].
  - exists [], l. split; [reflexivity | intros []].
  - destruct H as [H|H]; [contradiction|]. destruct (IH H) as (l1 & l2 & -> & Hn).
    exists (x :: l1), l2. split; [reflexivity|]. intros [C|C]; [exact (E C) | exact (Hn C)].
Qed.

(* nth, firstn, skipn, last *)
Lemma nth_firstn {A} n (l : list A) i d : i < n -> nth i (firstn n l) d = nth i l d.
Proof. revert n i; induction l as [|x t IH]; intros [|n] [|i] H; simpl; auto; try lia. apply IH; lia. Qed.

Lemma nth_tl {A} (l : list A) d i : nth i (tl l) d = nth (S i) l d.
Proof. destruct l; [destruct i|]; reflexivity. Qed.

Lemma hd_nth_0 {A} (l : list A) d : hd d l = nth 0 l d.
Proof. destruct l; reflexivity. Qed.

Lemma nth_skipn_add {A} (d : A) (l : list A) k n : nth n (skipn k l) d = nth (k + n) l d.
Proof.
  revert l; induction k; intros l; [reflexivity|].
  destruct l; cbn; [destruct n; reflexivity|]. apply IHk.
Qed.

Lemma firstn_app_length {A} (a b : list A) : firstn (length a) (a ++ b) = a.
Proof. induction a as [|x a IH]; cbn; [reflexivity | rewrite IH; reflexivity]. Qed.

Lemma skipn_app_length {A} (a r : list A) k : skipn (length a + k) (a ++ r) = skipn k r.
Proof. induction a as [|x a IH]; cbn; auto. Qed.

Lemma skipn_skipn {A} x y (l : list A) : skipn x (skipn y l) = skipn (x + y) l.
Proof.
  revert l; induction y as [|y IH]; intros l; [rewrite Nat.add_0_r; reflexivity|].
  rewrite Nat.add_succ_r. destruct l; [rewrite !skipn_nil; reflexivity | apply IH].
Qed.

Lemma skipn_cons_inv {A} k (l : list A) x t : skipn k l = x :: t -> nth_error l k = Some x /\ skipn (S k) l = t.
Proof.
  revert l; induction k as [|k IH]; intros [|a l] H; try discriminate.
  - injection H as -> ->. split; reflexivity.
  - exact (IH l H).
Qed.

Lemma app3_split {A} (l : list A) n k : n + k <= length l ->
  l = firstn n l ++ firstn k (skipn n l) ++ skipn k (skipn n l) /\
  length (firstn n l) = n /\ length (firstn k (skipn n l)) = k.
Proof.
  intros H. rewrite !firstn_skipn, !firstn_length, skipn_length. repeat split; lia.
Qed.

Lemma last_indep {A} (l : list A) a b : l <> [] -> last l a = last l b.
Proof.
  induction l as [|x [|y r] IH]; intros H; [congruence | reflexivity|].
  change (last (y :: r) a = last (y :: r) b). apply IH. congruence.
Qed.

Lemma last_In {A} (l : list A) d : l <> [] -> In (last l d) l.
Proof.
  induction l as [|x [|y r] IH]; intros H; [congruence | now left|].
  right. change (In (last (y :: r) d) (y :: r)). apply IH. congruence.
Qed.

Lemma nth_map_lt {A B} (f : A -> B) l i d d' : i < length l -> nth i (map f l) d = f (nth i l d').
Proof. intros H. rewrite (nth_indep _ d (f d')) by (rewrite map_length; exact H). apply map_nth. Qed.

Lemma nth_map_seq {B} (f : nat -> B) n i d : i < n -> nth i (map f (seq 0 n)) d = f i.
Proof.
  intros H. rewrite (nth_indep _ d (f 0)) by (rewrite map_length, seq_length; auto).
  rewrite map_nth, seq_nth; auto.
Qed.

Lemma map_nth_seq {A} (l : list A) d : map (fun j => nth j l d) (seq 0 (length l)) = l.
Proof. induction l as [|x t IH]; simpl; auto. f_equal. rewrite <- seq_shift, map_map. exact IH. Qed.

Lemma nth_map_nth_error {A B} (f : A -> B) l q d :
  nth q (map f l) d = match nth_error l q with Some j => f j | None => d end.
Proof. revert q; induction l as [|x t IH]; intros [|q]; simpl; auto. Qed.

Lemma nth_error_map_inv {A B} (f : A -> B) l n b :
  nth_error (map f l) n = Some b -> exists a, nth_error l n = Some a /\ b = f a.
Proof. rewrite nth_error_map. destruct (nth_error l n) as [a|]; simpl; intros [= <-]. eauto. Qed.

(* app, map, flat_map, forallb, combine *)
Lemma app_cons_snoc {A} (a : list A) x b : a ++ x :: b = (a ++ [x]) ++ b.
Proof. rewrite <- app_assoc. reflexivity. Qed.

Lemma map_repeat {A B} (f : A -> B) x n : map f (repeat x n) = repeat (f x) n.
Proof. induction n; simpl; auto. f_equal; auto. Qed.

Lemma flat_map_filter_map {A B} (p : A -> bool) (g : A -> B) l :
  flat_map (fun a => if p a then [] else [g a]) l = map g (filter (fun a => negb (p a)) l).
Proof. induction l as [|a l IH]; simpl; [reflexivity|]. destruct (p a); simpl; now rewrite IH. Qed.

Lemma forallb_map_true {A B} (p : B -> bool) (f : A -> B) l : (forall x, p (f x) = true) -> forallb p (map f l) = true.
Proof. intros H. induction l; simpl; auto. now rewrite H. Qed.

Lemma forallb_and {A} (p q : A -> bool) l :
  forallb p l = true -> forallb q l = true -> forallb (fun x => p x && q x) l = true.
Proof. rewrite !forallb_forall. intros Hp Hq x Hx. rewrite (Hp x Hx), (Hq x Hx). reflexivity. Qed.

Lemma map_ext_forallb {A B} (p : A -> bool) (f g : A -> B) l :
  forallb p l = true -> (forall x, p x = true -> f x = g x) -> map f l = map g l.
Proof. rewrite forallb_forall. intros Hp E. apply map_ext_in. intros x Hx. apply E, Hp, Hx. Qed.

Lemma combine_map_r {A B} (f : A -> B) l : combine l (map f l) = map (fun x => (x, f x)) l.
Proof. induction l; simpl; congruence. Qed.

Lemma combine_map_combine {A B C} (g : A * C -> B) (l : list A) (r : list C) :
  combine l (map g (combine l r)) = map (fun p => (fst p, g p)) (combine l r).
Proof. revert r. induction l as [|a l IH]; intros [|c r]; cbn; try reflexivity. rewrite IH. reflexivity. Qed.

Lemma map_fst_combine {A B} (l : list A) (l' : list B) : length l = length l' -> map fst (combine l l') = l.
Proof. revert l'. induction l as [|a l IH]; intros [|b l'] H; cbn in *; try discriminate; [reflexivity|]. rewrite IH by lia. reflexivity. Qed.

Lemma map_snd_combine {A B} (l : list A) (l' : list B) : length l = length l' -> map snd (combine l l') = l'.
Proof. revert l'. induction l as [|a l IH]; intros [|b l'] H; cbn in *; try discriminate; [reflexivity|]. rewrite IH by lia. reflexivity. Qed.

(* Forall2 *)
Lemma Forall2_length {A B} (R : A -> B -> Prop) l r : Forall2 R l r -> length l = length r.
Proof. induction 1; simpl; auto. Qed.

Lemma Forall2_nth {A B} (R : A -> B -> Prop) k l r d e : R d e -> Forall2 R l r -> R (nth k l d) (nth k r e).
Proof. intros Hd H. revert k. induction H; intros [|k]; simpl; auto. Qed.

Lemma Forall2_nth_error_l {A B} (R : A -> B -> Prop) l l' n a :
  Forall2 R l l' -> nth_error l n = Some a -> exists b, nth_error l' n = Some b /\ R a b.
Proof.
  intros H; revert n; induction H as [|x y l l' Hxy H IH]; intros [|n] Ha; simpl in *; try discriminate.
  - injection Ha as ->. eauto.
  - eauto.
Qed.

Lemma Forall2_nth_error {A B} (R : A -> B -> Prop) l l' n a b :
  Forall2 R l l' -> nth_error l n = Some a -> nth_error l' n = Some b -> R a b.
Proof.
  intros H Ha Hb. destruct (Forall2_nth_error_l R l l' n a H Ha) as (b' & Hb' & Hr). congruence.
Qed.

Lemma Forall2_firstn {A B} (R : A -> B -> Prop) n l r : Forall2 R l r -> Forall2 R (firstn n l) (firstn n r).
Proof. intros H. revert n. induction H; intros [|n]; simpl; auto. Qed.

Lemma Forall2_repeat {A B} (R : A -> B -> Prop) x y n : R x y -> Forall2 R (repeat x n) (repeat y n).
Proof. intros H. induction n; simpl; auto. Qed.

Lemma Forall2_map {A A' B B'} (S : B -> B' -> Prop) (f : A -> B) (f' : A' -> B') l l' :
  Forall2 (fun x x' => S (f x) (f' x')) l l' <-> Forall2 S (map f l) (map f' l').
Proof.
  split.
  - induction 1; simpl; auto.
  - revert l'; induction l as [|x l IH]; intros [|x' l'] H; inversion H; subst; auto.
Qed.

Lemma Forall2_map_ext_in {A B} (R : B -> B -> Prop) (f g : A -> B) l :
  (forall a, In a l -> R (f a) (g a)) -> Forall2 R (map f l) (map g l).
Proof.
  induction l as [|a l IH]; intros H; cbn; constructor; [apply H; left; reflexivity|].
  apply IH. intros b Hb. apply H. right. exact Hb.
Qed.

Lemma Forall2_diag {A} (R : A -> A -> Prop) l : Forall2 R l l <-> Forall (fun x => R x x) l.
Proof.
  split.
  - induction l; intros H; inversion H; subst; constructor; auto.
  - induction 1; constructor; auto.
Qed.

(* positional update *)
Section Positional.
Variable A : Type.
Implicit Types l : list A.

Fixpoint set_nth l (p : nat) (e : A) : list A :=
  match l, p with
  | [], _ => []
  | _ :: r, O => e :: r
  | y :: r, S k => y :: set_nth r k e
  end.

Lemma set_nth_length l : forall p e, length (set_nth l p e) = length l.
Proof. induction l as [|y r IH]; intros [|k] e; cbn; auto. Qed.

Lemma nth_set_nth_eq d l : forall p e, p < length l -> nth p (set_nth l p e) d = e.
Proof. induction l as [|y r IH]; intros [|k] e H; cbn in *; try lia; [reflexivity | apply IH; lia]. Qed.

Lemma nth_set_nth_neq d l : forall p q e, p <> q -> nth q (set_nth l p e) d = nth q l d.
Proof.
  induction l as [|y r IH]; intros [|k] [|m] e H; cbn; try reflexivity; [lia | apply IH; lia].
Qed.

Lemma set_nth_oob l : forall p e, length l <= p -> set_nth l p e = l.
Proof.
  induction l as [|y r IH]; intros [|k] e H; cbn in *; try reflexivity; [lia | rewrite IH by lia; reflexivity].
Qed.

Lemma set_nth_app_mid l1 e l2 x : set_nth (l1 ++ e :: l2) (length l1) x = l1 ++ x :: l2.
Proof. induction l1 as [|a l1 IH]; cbn; [reflexivity | rewrite IH; reflexivity]. Qed.

Lemma set_nth_app_l l1 l2 : forall p e, p < length l1 -> set_nth (l1 ++ l2) p e = set_nth l1 p e ++ l2.
Proof.
  induction l1 as [|a l1 IH]; intros [|k] e H; cbn in *; try lia; [reflexivity | rewrite IH by lia; reflexivity].
Qed.

Lemma Permutation_set_nth d l : forall p e, p < length l -> Permutation (nth p l d :: set_nth l p e) (e :: l).
Proof.
  induction l as [|y r IH]; intros [|k] e H; cbn in *; try lia; [apply perm_swap|].
  rewrite perm_swap, (IH k e) by lia. apply perm_swap.
Qed.

(* remove position p: the last element fills the hole *)
Definition remove_pos (p : nat) l : list A :=
  match rev l with
  | [] => []
  | lst :: _ =>
      if Nat.ltb p (length l) then
        (if Nat.eqb p (length l - 1) then removelast l else set_nth (removelast l) p lst)
      else l
  end.

Lemma remove_pos_oob p l : length l <= p -> remove_pos p l = l.
Proof.
  intros H. unfold remove_pos. destruct (rev l) eqn:E.
  - apply (f_equal (@rev A)) in E. rewrite rev_involutive in E. symmetry. exact E.
  - rewrite (proj2 (Nat.ltb_ge _ _) H). reflexivity.
Qed.

Lemma remove_pos_snoc p l a : p <= length l ->
  remove_pos p (l ++ [a]) = if Nat.eqb p (length l) then l else set_nth l p a.
Proof.
  intros H. unfold remove_pos. rewrite rev_app_distr, app_length, removelast_last. cbn [rev app length].
  rewrite (proj2 (Nat.ltb_lt p (length l + 1))), Nat.add_sub by lia. reflexivity.
Qed.

Lemma remove_pos_app_last l e : remove_pos (length l) (l ++ [e]) = l.
Proof. rewrite remove_pos_snoc, Nat.eqb_refl by lia. reflexivity. Qed.

Lemma remove_pos_app_mid l1 e l2 lst : remove_pos (length l1) (l1 ++ e :: l2 ++ [lst]) = l1 ++ lst :: l2.
Proof.
  rewrite app_comm_cons, app_assoc, remove_pos_snoc by (rewrite app_length; lia).
  rewrite (proj2 (Nat.eqb_neq _ _)) by (rewrite app_length; cbn [length]; lia). apply set_nth_app_mid.
Qed.

(* "idx[p] = idx[num - 1]; --num" *)
Lemma remove_pos_firstn d p l : p < length l ->
  remove_pos p l = firstn (length l - 1) (set_nth l p (nth (length l - 1) l d)).
Proof.
  induction l as [|a l _] using rev_ind; cbn [length]; [lia|]. rewrite app_length. cbn [length]. intros H.
  rewrite remove_pos_snoc, Nat.add_sub, nth_middle by lia. destruct (Nat.eqb_spec p (length l)) as [->|E].
  - rewrite set_nth_app_mid. symmetry. apply firstn_app_length.
  - rewrite set_nth_app_l, <- (set_nth_length l p a) at 1 by lia. symmetry. apply firstn_app_length.
Qed.

Lemma nth_remove_pos d p l i : p < length l -> i < length l - 1 ->
  nth i (remove_pos p l) d = if Nat.eqb p i then nth (length l - 1) l d else nth i l d.
Proof.
  intros Hp Hi. rewrite (remove_pos_firstn d), nth_firstn by assumption. destruct (Nat.eqb_spec p i) as [->|E].
  - apply nth_set_nth_eq. exact Hp.
  - apply nth_set_nth_neq. exact E.
Qed.

Lemma remove_pos_perm d p l : p < length l -> Permutation (nth p l d :: remove_pos p l) l.
Proof.
  induction l as [|a l _] using rev_ind; cbn [length]; [lia|]. rewrite app_length. cbn [length]. intros H.
  rewrite remove_pos_snoc by lia. destruct (Nat.eqb_spec p (length l)) as [->|E].
  - rewrite nth_middle. apply Permutation_cons_append.
  - rewrite app_nth1, (Permutation_set_nth d l p a) by lia. apply Permutation_cons_append.
Qed.

Lemma remove_pos_length p l : p < length l -> length (remove_pos p l) = length l - 1.
Proof.
  intros H. destruct l as [|x l]; [cbn in H; lia|].
  apply (remove_pos_perm x), Permutation_length in H. cbn [length] in *. lia.
Qed.

Lemma remove_pos_In p l x : In x (remove_pos p l) -> In x l.
Proof.
  intros H. destruct (Nat.lt_ge_cases p (length l)) as [Hp|Hp]; [|rewrite remove_pos_oob in H by exact Hp; exact H].
  apply (Permutation_in _ (remove_pos_perm x p l Hp)). right. exact H.
Qed.

Lemma remove_pos_In_other d p l x : p < length l -> In x l -> x <> nth p l d -> In x (remove_pos p l).
Proof.
  intros Hp Hx Hne. apply (Permutation_in _ (Permutation_sym (remove_pos_perm d p l Hp))) in Hx.
  destruct Hx as [Hx|Hx]; [congruence | exact Hx].
Qed.

Lemma remove_pos_NoDup_cons d p l : p < length l -> NoDup l -> NoDup (nth p l d :: remove_pos p l).
Proof. intros Hp. apply Permutation_NoDup, Permutation_sym, remove_pos_perm, Hp. Qed.

Lemma remove_pos_NoDup p l : NoDup l -> NoDup (remove_pos p l).
Proof.
  intros Hnd. destruct (Nat.lt_ge_cases p (length l)) as [Hp|Hp]; [|rewrite remove_pos_oob by exact Hp; exact Hnd].
  destruct l as [|x l]; [cbn in Hp; lia|]. apply (remove_pos_NoDup_cons x p _ Hp) in Hnd. inversion Hnd; assumption.
Qed.

End Positional.

Arguments set_nth {A}. Arguments remove_pos {A}.

Lemma map_set_nth {A B} (f : A -> B) l : forall p e, map f (set_nth l p e) = set_nth (map f l) p (f e).
Proof. induction l as [|y r IH]; intros [|k] e; cbn; try reflexivity. rewrite IH. reflexivity. Qed.

Lemma map_remove_pos {A B} (f : A -> B) p l : map f (remove_pos p l) = remove_pos p (map f l).
Proof.
  destruct (Nat.lt_ge_cases p (length l)) as [Hp|Hp]; [|rewrite !remove_pos_oob by (rewrite ?map_length; exact Hp); reflexivity].
  destruct l as [|x l]; [cbn in Hp; lia|].
  rewrite (remove_pos_firstn _ x), (remove_pos_firstn _ (f x)), <- firstn_map, map_set_nth, map_nth, map_length
    by (rewrite ?map_length; exact Hp).
  reflexivity.
Qed.

(* remove a range: l = a ++ b ++ c loses b; the last cpy = min(|b|, |c|) elements of c, rearranged by g, move in front
   of the rest of c.  The code cuts the list by positions: p = |a| + |b| + (|c| - cpy) is where the moved block starts,
   q = |c| - cpy the length of the rest of c, r = |a| + cpy where that rest starts once b is skipped; the first
   hypothesis says cpy = min(|b|, |c|) *)
Lemma remove_range_abc {A} (g : list A -> list A) (a b c : list A) cpy p q r :
  cpy = length b /\ cpy <= length c \/ cpy = length c /\ cpy <= length b ->
  p = length a + (length b + (length c - cpy)) -> q = length c - cpy -> r = length a + cpy ->
  firstn (length a) (a ++ b ++ c) ++ g (skipn p (a ++ b ++ c)) ++ firstn q (skipn r (a ++ b ++ c))
  = a ++ g (skipn (length c - cpy) c) ++ firstn (length c - cpy) c.
Proof.
  intros H -> -> ->. rewrite firstn_app_length, !skipn_app_length. f_equal. f_equal.
  destruct H as [[-> _]|[-> _]].
  - rewrite <- (Nat.add_0_r (length b)) at 2. rewrite skipn_app_length. reflexivity.
  - rewrite Nat.sub_diag. reflexivity.
Qed.

Lemma remove_range_perm {A} (g : list A -> list A) (a b c : list A) k :
  (forall x, Permutation (g x) x) -> Permutation ((a ++ g (skipn k c) ++ firstn k c) ++ b) (a ++ b ++ c).
Proof.
  intros Hg. rewrite <- app_assoc. apply Permutation_app_head.
  rewrite Hg, (Permutation_app_comm (skipn k c)), firstn_skipn. apply Permutation_app_comm.
Qed.
