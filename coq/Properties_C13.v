(* C13 - File readers survive arbitrary input: the control logic of the three hand-written lexers.
   Each theorem is closed by a lemma of Lexers_Proofs.v or a short derivation from them, or, for refutation
   witnesses, by computation; Examples show that hypotheses are satisfiable.  What is NOT here: the absence of memory errors in the compiled readers is explored with
   AddressSanitizer / UBSan / LeakSanitizer runs (checks/C13.py), not proved. *)
From Coq Require Import ZArith Bool List Arith Lia String.
From SV Require Import SettingsLexer LexersModel Lexers_Proofs.
Import ListNotations.
Local Open Scope Z_scope.

(* (a) settings line *)

(* [tokenise] is a total function on byte lists (a Gallina Fixpoint composition: it terminates on every input by
   construction); every token it returns is a contiguous segment of the C string of the line, the three segments are
   disjoint and in order, and no token contains a blank, '\n', '#' or NUL. *)
Theorem C13_tokenise_total :
  forall line ty name val, tokenise line = TOk ty name val ->
    exists a b c d, cstr line = a ++ ty ++ b ++ name ++ c ++ val ++ d /\
                    clean_tok ty /\ clean_tok name /\ clean_tok val /\ nz ty /\ nz name /\ nz val.
Proof. exact tokenise_tokens. Qed.
Print Assumptions C13_tokenise_total.

Theorem C13_tokens_within_line :
  forall line ty name val, tokenise line = TOk ty name val ->
    (List.length ty + List.length name + List.length val <= List.length line)%nat.
Proof. exact tokens_len. Qed.
Print Assumptions C13_tokens_within_line.

(* The parser as a cursor machine over the NUL-terminated buffer [line ++ [0]] (any bytes, also NULs inside):
   with the stepping rule of the repaired code no read is outside the buffer, the result is exactly [tokenise line],
   and the cursor ends at or before the terminator (the first NUL). *)
Theorem C13_settings_cursor_in_bounds :
  forall line, exists i, c_parse false (line ++ [0]) = Ok (tokenise line, i) /\ (i <= term_pos line)%nat.
Proof. intros line. exact (cursor_in_bounds line []). Qed.
Print Assumptions C13_settings_cursor_in_bounds.

(* The stepping rule before commit f3bbc2a (unconditional "*line = 0; line++" after a token) violates it: a line that
   ends after the type token or after the name token is read one byte behind its terminator. *)
Example C13_old_rule_reads_behind_terminator_type : c_parse true (codes "bool" ++ [0]) = Oob.
Proof. vm_compute. reflexivity. Qed.
Example C13_old_rule_reads_behind_terminator_name : c_parse true (codes "int:iterlimit" ++ [0]) = Oob.
Proof. vm_compute. reflexivity. Qed.
(* in a larger (zero padded) buffer the old cursor ends behind the terminator, the repaired one on it *)
Example C13_old_rule_cursor_behind_terminator :
  c_parse true (codes "bool" ++ repeat 0 8) = Ok (TError, 5%nat) /\ term_pos (codes "bool" ++ repeat 0 8) = 4%nat /\
  c_parse false (codes "bool" ++ repeat 0 8) = Ok (TError, 4%nat).
Proof. vm_compute. repeat split; reflexivity. Qed.
Example C13_cursor_example :
  c_parse false (codes "real : feastol= 1e-9 # tight" ++ [0]) = Ok (TOk (codes "real") (codes "feastol") (codes "1e-9"), 21%nat).
Proof. vm_compute. reflexivity. Qed.

(* (b) MPSInput::readLine *)

(* With the repaired give-up condition (getline(...).fail()) readLine returns after at most
   [stream_measure st] + 1 getline calls, for every stream state and every parser state; for a fresh stream of n bytes
   that is n + 3 calls. *)
Theorem C13_mps_readLine_terminates_on_finite_stream :
  forall st ps fuel, (stream_measure st < fuel)%nat -> readLine true fuel st ps <> OutOfFuel.
Proof. intros st ps fuel. exact (readLine_terminates_lemma fuel st ps). Qed.
Print Assumptions C13_mps_readLine_terminates_on_finite_stream.

Theorem C13_mps_readLine_fuel_monotone :
  forall eofcheck fuel fuel' st ps, (fuel <= fuel')%nat -> readLine eofcheck fuel st ps <> OutOfFuel ->
    readLine eofcheck fuel' st ps = readLine eofcheck fuel st ps.
Proof. intros eofcheck fuel fuel' st ps. exact (readLine_fuel_mono eofcheck fuel st ps fuel'). Qed.
Print Assumptions C13_mps_readLine_fuel_monotone.

(* The original condition (!good() && !eof()) refutes the statement: at the end of the input eofbit stays set, every
   further getline stores an empty line, an empty line counts as a comment, and the loop never ends. *)
Theorem C13_mps_readLine_terminates_on_finite_stream_refuted :
  exists bytes, forall fuel ps, readLine false fuel (fresh_stream bytes) ps = OutOfFuel.
Proof. exists []. exact readLine_refuted_lemma. Qed.
Print Assumptions C13_mps_readLine_terminates_on_finite_stream_refuted.

(* the same for the state every truncated file ends in: last line consumed, eofbit set *)
Theorem C13_mps_readLine_hangs_at_eof :
  forall fuel ps, readLine false fuel (mkStream [] true false) ps = OutOfFuel.
Proof. intros fuel ps. exact (readLine_hangs_at_eof fuel (mkStream [] true false) ps eq_refl). Qed.
Print Assumptions C13_mps_readLine_hangs_at_eof.

(* a truncated MPS file: two calls succeed (NAME, ROWS), the third hangs in the original code and returns false in the
   repaired code *)
Definition trunc_mps := codes "NAME x" ++ [10] ++ codes "ROWS" ++ [10] ++ codes "* end" ++ [10].
Definition third_call (eofcheck : bool) (fuel : nat) : rl_result :=
  match readLine eofcheck 5 (fresh_stream trunc_mps) (init_pstate SName false) with
  | RetTrue _ st1 ps1 =>
    match readLine eofcheck 5 st1 ps1 with
    | RetTrue _ st2 ps2 => readLine eofcheck fuel st2 ps2
    | r => r
    end
  | r => r
  end.
Example C13_truncated_file_old : third_call false 1000 = OutOfFuel.
Proof. vm_compute. reflexivity. Qed.
Example C13_truncated_file_repaired : exists st ps, third_call true 3 = RetFalse st ps.
Proof. vm_compute. eauto. Qed.
Example C13_fields_example :
  match readLine true 3 (fresh_stream (codes "    x1        obj                  1   r1                  -2" ++ [10]))
                 (init_pstate SColumns false) with
  | RetTrue f _ ps => f = mkF None (Some (codes "x1")) (Some (codes "obj")) (Some (codes "1")) (Some (codes "r1")) (Some (codes "-2"))
                      /\ p_newfmt ps = false
  | _ => False
  end.
Proof. vm_compute. split; reflexivity. Qed.

(* (c) LP format: copy loops into char[8192] *)

(* the copy loop writes outside an array of [cap] bytes exactly when the token has [cap] or more characters *)
Theorem C13_lpf_copy_overflow_iff :
  forall cap tok buf i, copy_loop cap buf i tok = None <-> (cap <= i + List.length tok)%nat.
Proof. intros cap tok. exact (copy_loop_none_iff cap tok). Qed.
Print Assumptions C13_lpf_copy_overflow_iff.

(* and when it fits the array holds the token as a C string *)
Theorem C13_lpf_copy_content :
  forall cap tok, nz tok -> (List.length tok < cap)%nat ->
    exists arr, copy_loop cap (fresh_array cap) 0 tok = Some arr /\ cstr arr = tok.
Proof. intros cap tok. exact (copy_loop_cstr cap _ tok). Qed.
Print Assumptions C13_lpf_copy_content.

(* the part of "the copy stays within the buffer" that holds: every line shorter than the array is safe in
   LPFreadValue (real and rational scan), LPFreadColName and LPFhasRowName.  (readLPF grows its line buffer beyond
   8192 bytes, so longer lines do reach these functions.) *)
Theorem C13_lpf_copy_within_buffer_partial :
  forall cap rational l, (List.length l < cap)%nat ->
    lpf_read_value cap rational l <> Overflow /\ lpf_read_colname cap l <> Overflow /\ lpf_has_rowname cap l <> Overflow.
Proof. exact lpf_short_lines_safe. Qed.
Print Assumptions C13_lpf_copy_within_buffer_partial.

(* the full statement is refuted: a numeric literal, a column name and a row name of 8192 characters *)
Theorem C13_lpf_copy_within_buffer_refuted :
  (exists l, lpf_read_value LPF_CAP false l = Overflow) /\
  (exists l, lpf_read_value LPF_CAP true l = Overflow) /\
  (exists l, lpf_read_colname LPF_CAP l = Overflow) /\
  (exists l, lpf_has_rowname LPF_CAP l = Overflow).
Proof.
  pose proof (Nat.le_succ_diag_r LPF_CAP) as H.
  split; [|split; [|split]].
  - exists (repeat 49 (S LPF_CAP)). apply lpf_read_value_run, H.
  - exists (repeat 49 (S LPF_CAP)). apply lpf_read_value_run, H.
  - exists (repeat 120 LPF_CAP). apply lpf_read_colname_run, Nat.le_refl.
  - exists (repeat 114 (S LPF_CAP) ++ [58]). apply lpf_has_rowname_run, H.
Qed.
Print Assumptions C13_lpf_copy_within_buffer_refuted.

Example C13_lpf_value_example :
  lpf_read_value LPF_CAP false (codes "-12.5e+3 x1") = Done (Some (codes "-12.5e+3"), 9%nat) /\
  lpf_read_value LPF_CAP true (codes "3/4x") = Done (Some (codes "3/4"), 3%nat) /\
  lpf_read_value LPF_CAP false (codes "+ x") = Done (None, 2%nat).
Proof. vm_compute. repeat split; reflexivity. Qed.
Example C13_lpf_names_example :
  lpf_read_colname LPF_CAP (codes "x_1 + y") = Done (codes "x_1", 4%nat) /\
  lpf_has_rowname LPF_CAP (codes " cap 1 : x + y <= 2") = Done (Some (codes "1"), 8%nat).
Proof. vm_compute. repeat split; reflexivity. Qed.

(* LPFhasKeyword: the index into the keyword literal leaves the literal when the word on the line continues with the
   ']' of an optional part ("maximize]" against "max[imize]"): the search for the closing bracket starts at the NUL. *)
Theorem C13_lpf_keyword_index_in_bounds_refuted :
  exists kw pos, lpf_has_keyword kw pos = KwOob.
Proof. exists (codes "max[imize]"), (codes "maximize]"). vm_compute. reflexivity. Qed.
Print Assumptions C13_lpf_keyword_index_in_bounds_refuted.

Example C13_lpf_keyword_examples :
  lpf_has_keyword (codes "max[imize]") (codes "MAXIMIZE") = KwYes 8%nat /\
  lpf_has_keyword (codes "max[imize]") (codes "max x") = KwYes 3%nat /\
  lpf_has_keyword (codes "s[ubject][   ]t[o]") (codes "subject to") = KwYes 10%nat /\
  lpf_has_keyword (codes "s[ubject][   ]t[o]") (codes "st") = KwYes 2%nat /\
  lpf_has_keyword (codes "bound[s]") (codes "bounded") = KwNo /\
  lpf_has_keyword (codes "inf[inity]") (codes "inf<=x") = KwYes 3%nat.
Proof. vm_compute. repeat split; reflexivity. Qed.
